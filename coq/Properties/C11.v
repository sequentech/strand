(* C11 — only genuine subgroup elements and canonical exponents decode from bytes.
   VAL w rd := forall bs a r, bytes_ok bs -> rd bs = Ok (a, r) -> w a /\ bytes_ok r. *)
From Coq Require Import ZArith List.
From Strand Require Import Base.ZUtil Model.Outcome Model.Codec Model.Backend Model.ZBackend Model.Zkp Model.Wire
  Proofs.ZLaws Proofs.ZInst Proofs.CodecP Proofs.WireP.
From Strand Require Import Model.Ristretto Model.RBackend Proofs.RistrettoWireP.
Import ListNotations.
Open Scope Z_scope.

(* exact acceptance sets of the primitive decoders, both byte orders *)
Theorem C11_element_acceptance : forall K fl P, 1 < p_p P -> forall bs v,
  element_from_bytes K fl P bs = Ok v <->
  v = int_of_bytes fl bs /\ 1 <= v < p_p P /\ v ^ p_q P mod p_p P = 1.
Proof. exact element_from_bytes_spec. Qed.
Print Assumptions C11_element_acceptance.

Theorem C11_exponent_acceptance : forall fl P bs v,
  exp_from_bytes fl P bs = Ok v <-> v = int_of_bytes fl bs /\ v < p_q P.
Proof. exact exp_from_bytes_spec. Qed.
Print Assumptions C11_exponent_acceptance.

(* ... and for a safe-prime group that acceptance set is exactly the set of non-zero quadratic residues, i.e. the
   prime-order subgroup: nothing outside it decodes and every element of it does (when presented as its integer) *)
Theorem C11_members_are_the_quadratic_residues : forall P, SafePrime P -> forall a,
  member P a <-> (1 <= a < p_p P /\ exists e, 0 < e < p_p P /\ (e ^ 2) mod p_p P = a).
Proof. exact member_iff_quadratic_residue. Qed.
Print Assumptions C11_members_are_the_quadratic_residues.

(* every composite decodes only if each embedded element is a member and each exponent canonical *)
Theorem C11_composites : forall K fl P, 1 < p_p P ->
  VAL (vE P) (rd_E K fl P) /\ VAL (vX P) (rd_X fl P) /\ VAL (v_ct K fl P) (rd_ct K fl P) /\
  VAL (vE P) (rd_pk K fl P) /\ VAL (v_sk P) (rd_sk K fl P) /\
  VAL (v_schnorr K fl P) (rd_schnorr K fl P) /\ VAL (v_cp K fl P) (rd_cp K fl P) /\
  VAL (Forall (vE P)) (rd_vecE K fl P) /\ VAL (Forall (vX P)) (rd_vecX fl P) /\
  VAL (Forall (v_ct K fl P)) (rd_vecC K fl P) /\ VAL (Forall (v_cp K fl P)) (rd_vecCP K fl P) /\
  VAL (w_proof P) (rd_proof K fl P).
Proof.
  intros K fl P Hp.
  repeat apply conj; eauto using val_E, val_X, val_ct, val_pk, val_sk, val_schnorr, val_cp, val_vecE, val_vecX,
    val_vecC, val_vecCP, val_proof.
Qed.
Print Assumptions C11_composites.

Theorem C11_decoded_shuffle_proof : forall K fl P, 1 < p_p P -> forall bs w,
  de_proof K fl P bs = Ok w -> bytes_ok bs ->
  member P (sp_t1 w) /\ member P (sp_t2 w) /\ member P (sp_t3 w) /\ member P (sp_t41 w) /\ member P (sp_t42 w) /\
  Forall (member P) (sp_t_hats w) /\ Forall (member P) (sp_cs w) /\ Forall (member P) (sp_c_hats w) /\
  0 <= sp_s1 w < p_q P /\ 0 <= sp_s2 w < p_q P /\ 0 <= sp_s3 w < p_q P /\ 0 <= sp_s4 w < p_q P /\
  Forall (fun x => 0 <= x < p_q P) (sp_s_hats w) /\ Forall (fun x => 0 <= x < p_q P) (sp_s_primes w).
Proof. exact decoded_proof_wf. Qed.
Print Assumptions C11_decoded_shuffle_proof.

(* ristretto: a byte string decodes as an exponent iff it is the 32-byte little-endian encoding of an integer below
   the group order; strings of any other length decode neither as exponent nor as element; non-canonical field
   encodings (>= 2^255-19, hence any set top bit) and negative (odd) values are refused as elements before the
   curve equation is consulted. (Of the remaining 32-byte strings, those that decode are valid points and canonical
   encodings, below; that every ristretto encoding decodes — DECODE (ENCODE P) ~ P — is executed by the model and tied
   to curve25519-dalek, not proved.) *)
Theorem C11_ristretto_exponent_acceptance : forall bs v,
  r_exp_from_bytes bs = Ok v <-> (length bs = 32%nat /\ v = le_int bs /\ v < ell).
Proof. exact r_exp_acceptance. Qed.
Print Assumptions C11_ristretto_exponent_acceptance.

Theorem C11_ristretto_length_and_canonicity : forall K bs,
  (length bs <> 32%nat -> r_exp_from_bytes bs = Err /\ r_element_from_bytes K bs = Err) /\
  (length bs = 32%nat -> (le_int bs >= fp \/ Z.odd (le_int bs) = true) -> r_element_from_bytes K bs = Err).
Proof. intros K bs. split; [exact (r_wrong_length_refused K bs)|exact (r_element_precheck K bs)]. Qed.
Print Assumptions C11_ristretto_length_and_canonicity.

(* ristretto: every byte string the backend accepts as a group element denotes a point of the curve — a valid extended
   point (Z = 1, T = X Y, -x^2 + y^2 = 1 + d x^2 y^2), for every kernel and every byte string. (The length / canonical /
   non-negative pre-checks are the statements above; that the accepted string is the encoding ENCODE gives back is proved
   further down; that ENCODE gives the same string for every representative of the coset is executed against
   curve25519-dalek, not proved.) *)
From Strand Require Import Base.ZpField Base.Edwards Model.RBackend Proofs.RistrettoGroup Proofs.RistrettoDecode.
Theorem C11_ristretto_accepted_elements_are_curve_points : forall (K : Kernel) bs P,
  r_element_from_bytes K bs = Ok P -> valid P.
Proof. exact r_element_from_bytes_valid. Qed.
Print Assumptions C11_ristretto_accepted_elements_are_curve_points.

(* ... and the accepted string is THE canonical encoding of that point: ENCODE (DECODE bs) = bs (RFC 9496), so decoding is
   injective and an accepted element re-serialises to exactly the bytes it came from. [bytes_ok]: every list entry is a
   byte. Proofs/RistrettoCanon.v — rests on the proved completeness of SQRT_RATIO_M1 (Proofs/SqrtRatio.v). *)
From Strand Require Import Proofs.CodecP Proofs.SqrtRatio Proofs.RistrettoCanon.
Theorem C11_ristretto_accepted_encoding_is_canonical : forall (K : Kernel) bs P, bytes_ok bs ->
  r_element_from_bytes K bs = Ok P -> compress K P = bs.
Proof. exact r_element_bytes_canonical. Qed.
Print Assumptions C11_ristretto_accepted_encoding_is_canonical.

Theorem C11_ristretto_decoding_injective : forall (K : Kernel) bs1 bs2 P, bytes_ok bs1 -> bytes_ok bs2 ->
  decompress K bs1 = Some P -> decompress K bs2 = Some P -> bs1 = bs2.
Proof. exact decompress_injective. Qed.
Print Assumptions C11_ristretto_decoding_injective.

(* non-vacuity: a concrete byte string is accepted (32 zero bytes: the neutral element) *)
Example C11_ristretto_nonvacuous : exists P, r_element_from_bytes K_ref (repeat 0 32) = Ok P.
Proof. exists pt_id. unfold r_element_from_bytes. now rewrite decompress_zeros. Qed.
