(* C01 — ElGamal decrypt inverts encrypt. *)
From Coq Require Import ZArith List.
From Strand Require Import Base.ZUtil Model.Outcome Model.Backend Model.ZBackend Model.Zkp Model.Exec
  Proofs.Laws Proofs.ZLaws Proofs.ElgamalP Proofs.ZInst Proofs.Corollaries
  Model.Ristretto Model.RistrettoFast Model.RBackend Proofs.RistrettoGroup.
Open Scope Z_scope.

(* any backend whose operations satisfy the group laws (C15 proves them for the multiplicative backends and for
   the Edwards group the ristretto backend computes in; the ristretto record itself is treated below) *)
Theorem C01_decrypt_encrypt : forall (B : Backend) (mem : E B -> Prop), Laws B mem ->
  forall sk m r, 0 <= sk -> 0 <= r -> mem m ->
  decrypt B sk (encrypt_with_randomness B (pk_of_sk B sk) m r) = Ok m.
Proof. exact decrypt_encrypt. Qed.
Print Assumptions C01_decrypt_encrypt.

Theorem C01_exponential : forall (B : Backend) (mem : E B -> Prop), Laws B mem ->
  forall sk k r, 0 <= sk -> 0 <= r -> 0 <= k ->
  decrypt B sk (encrypt_exponential B (pk_of_sk B sk) k r) = Ok (b_gpow B k).
Proof. exact decrypt_encrypt_exponential. Qed.
Print Assumptions C01_exponential.

Theorem C01_homomorphic : forall (B : Backend) (mem : E B -> Prop), Laws B mem ->
  forall sk c1 c2 d1 d2,
  mem (mhr c1) -> mem (gr c1) -> mem (mhr c2) -> mem (gr c2) -> 0 <= sk ->
  decrypt B sk c1 = Ok d1 -> decrypt B sk c2 = Ok d2 ->
  decrypt B sk (ct_mul B c1 c2) = Ok (b_mulp B d1 d2).
Proof. exact decrypt_ct_mul. Qed.
Print Assumptions C01_homomorphic.

(* the documented API path on both multiplicative backends, every safe-prime parameter set, every key,
   every plaintext of the plaintext space [0, q-2], every randomness (not only canonical ones) *)
Theorem C01_api_roundtrip : forall K fl P, SafePrime P ->
  forall sk r pt, 0 <= sk -> 0 <= r -> 0 <= pt < p_q P - 1 ->
  exists e d, encode K P pt = Ok e /\
              decrypt (ZB K fl P) sk (encrypt_with_randomness (ZB K fl P) (pk_of_sk (ZB K fl P) sk) e r) = Ok d /\
              decode P d = Ok pt.
Proof. exact elgamal_roundtrip. Qed.
Print Assumptions C01_api_roundtrip.

Theorem C01_encrypt_and_pok : forall (B : Backend) (mem : E B -> Prop), Laws B mem ->
  forall sk m label r nonce, 0 <= sk -> 0 <= r -> 0 <= nonce -> mem m ->
  let '(c, pf) := encrypt_and_pok B (pk_of_sk B sk) m label r nonce in
  decrypt B sk c = Ok m /\ encryption_popk_verify B (mhr c) (gr c) pf label = true.
Proof. exact encrypt_and_pok_ok. Qed.
Print Assumptions C01_encrypt_and_pok.

Example C01_nonvacuous :
  decrypt (ZB K_ref Bigint (mkP 23)) 7 (encrypt_with_randomness (ZB K_ref Bigint (mkP 23)) (pk_of_sk (ZB K_ref Bigint (mkP 23)) 7) 9 10) = Ok 9.
Proof. vm_compute. reflexivity. Qed.

(* the ristretto backend record of the model (Model/RBackend.v over the executable curve arithmetic of
   Model/Ristretto.v), WITHOUT any group-law hypothesis: for every kernel, secret key, randomness and every valid
   message point, decryption of the encryption succeeds and returns the message point — the same point of the
   Edwards curve (equal affine image), hence equal under the backend's own equality (RFC 9496 4.3.3).
   [valid] = extended coordinates with Z <> 0, on the curve, T Z = X Y (Proofs/RistrettoGroup.v). *)
Theorem C01_ristretto_roundtrip : forall (K : Kernel) (PM : PMul) sk r m, valid m ->
  exists d, decrypt (RB K PM) sk (encrypt_with_randomness (RB K PM) (pk_of_sk (RB K PM) sk) m r) = Ok d /\
            valid d /\ aff d = aff m /\ b_eqb (RB K PM) d m = true.
Proof. exact rb_elgamal_roundtrip. Qed.
Print Assumptions C01_ristretto_roundtrip.

(* non-vacuity: the base point is a valid message point *)
Example C01_ristretto_nonvacuous : valid (pt_base K_ref).
Proof. exact (valid_base K_ref). Qed.

(* ristretto backend, the whole API path at the byte level, no hypothesis: for every 30-byte plaintext on which Ctx::encode
   succeeds, every key and every randomness, decode(decrypt(encrypt(encode data))) = data, and the decrypted element
   serialises to exactly the bytes of the encoded one. Uses: the group law, ENCODE(DECODE bs) = bs, and that ENCODE depends
   only on the curve point (Proofs/RistrettoEncode.v: compress_aff). *)
From Strand Require Import Model.Codec Proofs.CodecP Proofs.RistrettoCanon Proofs.RistrettoEncode.
Theorem C01_ristretto_api_roundtrip : forall (K : Kernel) (PM : PMul) data m sk r,
  bytes_ok data -> length data = 30%nat -> r_encode K data = Ok m ->
  exists d, decrypt (RB K PM) sk (encrypt_with_randomness (RB K PM) (pk_of_sk (RB K PM) sk) m r) = Ok d /\
            r_decode K d = data /\ b_ser_e (RB K PM) d = b_ser_e (RB K PM) m.
Proof. exact rb_api_roundtrip. Qed.
Print Assumptions C01_ristretto_api_roundtrip.
