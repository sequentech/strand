(* C02 — a shuffle outputs exactly a re-encrypted permutation of its inputs. *)
From Coq Require Import ZArith List Permutation.
From Strand Require Import Model.Outcome Model.Codec Model.Backend Model.Zkp Model.Shuffler Model.Rng
  Proofs.Laws Proofs.ListAlg Proofs.ShuffleRel.
Import ListNotations.
Open Scope Z_scope.

(* the library's permutation sampler (rand 0.8 Fisher-Yates over u32 draws) returns a permutation of 0..n-1
   for EVERY random byte stream *)
Theorem C02_sampler_yields_permutation : forall (n : nat) (s : bytes) (l : list Z) (rest : bytes),
  (forall b, In b s -> 0 <= b < 256) ->
  gen_permutation n s = Ok (l, rest) -> Permutation l (iota n).
Proof. exact gen_permutation_is_perm. Qed.
Print Assumptions C02_sampler_yields_permutation.

(* output k is input perm[k] re-encrypted ([reenc]) with that input's returned exponent; same length; one exponent
   per input, returned unchanged *)
Theorem C02_relation : forall (B : Backend) pk perm es rs out rs',
  Permutation perm (iota (length es)) -> length rs = length es ->
  apply_permutation B pk perm es rs = Ok (out, rs') ->
  rs' = rs /\ length out = length es /\
  forall k, (k < length es)%nat ->
    exists i c r, nth_error perm k = Some (Z.of_nat i) /\ nth_error es i = Some c /\ nth_error rs i = Some r /\
                  nth_error out k = Some (reenc B pk c r).
Proof. exact apply_permutation_rel. Qed.
Print Assumptions C02_relation.

Theorem C02_total_on_permutations : forall (B : Backend) pk perm es rs,
  Permutation perm (iota (length es)) -> length rs = length es ->
  exists out, apply_permutation B pk perm es rs = Ok (out, rs).
Proof. exact apply_permutation_ok. Qed.
Print Assumptions C02_total_on_permutations.

(* nothing dropped, duplicated or altered: the outputs decrypt to a permutation of the input plaintexts *)
Theorem C02_plaintexts_preserved : forall (B : Backend) (mem : E B -> Prop), Laws B mem ->
  forall sk perm es rs out rs' ds,
  0 <= sk -> Forall (fun r => 0 <= r) rs -> Forall (wf_ct B mem) es ->
  Permutation perm (iota (length es)) -> length rs = length es ->
  apply_permutation B (pk_of_sk B sk) perm es rs = Ok (out, rs') ->
  mapM (decrypt B sk) es = Ok ds ->
  exists ds', mapM (decrypt B sk) out = Ok ds' /\ Permutation ds' ds /\ Forall (wf_ct B mem) out.
Proof. exact shuffle_preserves_plaintexts. Qed.
Print Assumptions C02_plaintexts_preserved.

(* any cascade of k >= 0 mixers, each with its own permutation and exponents *)
Theorem C02_cascade : forall (B : Backend) (mem : E B -> Prop), Laws B mem ->
  forall sk es final ds,
  0 <= sk -> Forall (wf_ct B mem) es -> cascade B (pk_of_sk B sk) es final ->
  mapM (decrypt B sk) es = Ok ds ->
  exists ds', mapM (decrypt B sk) final = Ok ds' /\ Permutation ds' ds.
Proof. exact cascade_preserves_plaintexts. Qed.
Print Assumptions C02_cascade.
