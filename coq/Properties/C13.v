(* C13 — decoding and verifying untrusted data never panics.
   np_reader rd := forall bs, rd bs <> Panic  — for EVERY byte string (no well-formedness assumed). *)
From Coq Require Import ZArith List.
From Strand Require Import Base.ZUtil Model.Outcome Model.Codec Model.Backend Model.ZBackend Model.Zkp Model.Wire
  Model.Shuffler Model.Exec Proofs.Laws Proofs.ZLaws Proofs.CodecP Proofs.WireP Proofs.ShuffleSpec Proofs.Untrusted.
From Strand Require Import Model.Ristretto Model.RistrettoFast Model.RBackend Proofs.RistrettoWireP.
Import ListNotations.
Open Scope Z_scope.

Theorem C13_no_decoder_panics : forall K fl P,
  np_reader (rd_E K fl P) /\ np_reader (rd_X fl P) /\ np_reader (rd_P fl) /\ np_reader (rd_ct K fl P) /\
  np_reader (rd_pk K fl P) /\ np_reader (rd_sk K fl P) /\ np_reader (rd_schnorr K fl P) /\ np_reader (rd_cp K fl P) /\
  np_reader (rd_vecE K fl P) /\ np_reader (rd_vecX fl P) /\ np_reader (rd_vecP fl) /\ np_reader (rd_vecC K fl P) /\
  np_reader (rd_vecCP K fl P) /\ np_reader (rd_proof K fl P).
Proof.
  intros K fl P.
  exact (conj (np_E K fl P) (conj (np_X fl P) (conj (np_P fl) (conj (np_ct K fl P) (conj (np_pk K fl P)
        (conj (np_sk K fl P) (conj (np_schnorr K fl P) (conj (np_cp K fl P) (conj (np_vecE K fl P)
        (conj (np_vecX fl P) (conj (np_vecP fl) (conj (np_vecC K fl P) (conj (np_vecCP K fl P) (np_proof K fl P)))))))))))))).
Qed.
Print Assumptions C13_no_decoder_panics.

Theorem C13_strict_decoders_never_panic : forall {A} (rd : reader A), np_reader rd -> forall bs, strict rd bs <> Panic.
Proof. exact @strict_np. Qed.
Print Assumptions C13_strict_decoders_never_panic.

(* bytes in, decision out: any decodable proof with any decodable ciphertext lists (any lengths, incl. N = 0
   and |es| <> |e'|), locally derived generators: check_proof returns a decision *)
Theorem C13_decode_then_check_shuffle : forall K fl P, GoodParams P ->
  forall pfb csb csb' pk h0 hs label w es es',
  bytes_ok pfb -> bytes_ok csb -> bytes_ok csb' ->
  de_proof K fl P pfb = Ok w ->
  strict (rd_vecC K fl P) csb = Ok es -> strict (rd_vecC K fl P) csb' = Ok es' ->
  member P pk -> member P h0 -> Forall (member P) hs -> length hs = length es ->
  exists b, check_proof (ZB K fl P) pk (h0 :: hs) (of_wire K fl P w) es es' label = Ok b.
Proof. exact decode_then_check_total. Qed.
Print Assumptions C13_decode_then_check_shuffle.

(* and for arbitrary (even non-member) contents, wrong component counts are a plain rejection *)
Theorem C13_wrong_counts_no_panic : forall (B : Backend) pk gens pf es e_primes label,
  gens <> [] -> ~ lengths_ok B pf es e_primes -> check_proof B pk gens pf es e_primes label = Ok false.
Proof. exact check_proof_wrong_counts. Qed.
Print Assumptions C13_wrong_counts_no_panic.

(* memory in proportion to the input, the model-level half: whatever a reader returns is BACKED by the bytes it consumed
   (size = bytes of every big integer + 4 per vector item and per length prefix), for every byte string and every wire
   type except the plaintext readers rd_P / rd_vecP, which the statement does not list; an item count is accepted only
   if the announced items are backed by input (at least minsz bytes each) and an unbacked count is refused before any
   item is read. What the allocator does on top (borsh's cautious 4096-byte
   pre-allocation, Vec growth) is measured by the harness' counting allocator on every run, not proved. *)
From Strand Require Import Proofs.SizeP.
Theorem C13_decoded_data_is_backed_by_input : forall K fl P,
  BK bsz (rd_E K fl P) /\ BK bsz (rd_X fl P) /\ BK (sz_ct K fl P) (rd_ct K fl P) /\ BK bsz (rd_pk K fl P) /\
  BK sz_sk (rd_sk K fl P) /\ BK (sz_schnorr K fl P) (rd_schnorr K fl P) /\ BK (sz_cp K fl P) (rd_cp K fl P) /\
  BK (sz_vec bsz) (rd_vecE K fl P) /\ BK (sz_vec bsz) (rd_vecX fl P) /\ BK (sz_vec (sz_ct K fl P)) (rd_vecC K fl P) /\
  BK (sz_vec (sz_cp K fl P)) (rd_vecCP K fl P) /\ BK sz_proof (rd_proof K fl P).
Proof. exact decoded_data_is_backed_by_input. Qed.
Print Assumptions C13_decoded_data_is_backed_by_input.

Theorem C13_strict_decode_no_larger_than_input : forall {A} (sz : A -> nat) (rd : reader A), BK sz rd ->
  forall bs v, bytes_ok bs -> strict rd bs = Ok v -> (sz v <= length bs)%nat.
Proof. exact @strict_decode_no_larger_than_input. Qed.
Print Assumptions C13_strict_decode_no_larger_than_input.

Theorem C13_item_counts_are_backed : forall {A} minsz (rd : reader A),
  (forall bs l r, rd_vec minsz rd bs = Ok (l, r) -> (4 + length l * minsz <= length bs)%nat) /\
  (forall a r, length a = 4%nat -> Z.of_nat (length r) < le_int a * Z.of_nat minsz -> rd_vec minsz rd (a ++ r) = Err).
Proof. intros A minsz rd. split; [exact (rd_vec_count_backed minsz rd)|exact (rd_vec_unbacked_refused minsz rd)]. Qed.
Print Assumptions C13_item_counts_are_backed.

(* the third backend: every ristretto wire reader (32-byte points and scalars, 30-byte plaintexts, ciphertexts, keys,
   Schnorr / Chaum-Pedersen proofs, the vector wrappers and the shuffle proof) is total on EVERY byte string *)
Theorem C13_ristretto_decoders_never_panic : forall K PM,
  np_reader (rd_RE K) /\ np_reader rd_RX /\ np_reader rd_RP /\ np_reader (rd_Rct K PM) /\ np_reader (rd_Rsk K) /\
  np_reader (rd_Rschnorr K PM) /\ np_reader (rd_Rcp K PM) /\
  np_reader (rd_Rsvec (rd_RE K)) /\ np_reader (rd_Rsvec rd_RX) /\ np_reader (rd_Rsvec (rd_Rct K PM)) /\
  np_reader (rd_Rproof K PM).
Proof. exact ristretto_readers_never_panic. Qed.
Print Assumptions C13_ristretto_decoders_never_panic.
