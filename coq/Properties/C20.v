(* C20 — Ed25519 wrappers: valid signatures verify, encodings round-trip, malformed encodings are rejected.
   The wrappers are modelled over the underlying library as an ORACLE (six section variables: which bytes the
   library accepts as keys/signatures, pk_of_sk, sign, verify). Completeness of the scheme is a premise of the
   composite wrapper theorem, not an axiom; for the executable Ed25519 model it is proved at the end of this file
   (C20_signed_messages_verify). That flipping a bit of message/signature/key is rejected is a computational
   property of Ed25519 (unforgeability) and is only observed on the implementation. *)
From Coq Require Import ZArith List.
From Strand Require Import Model.Outcome Model.Codec Model.Base64 Proofs.CodecP Proofs.Base64P
  Base.ZpField Base.Edwards Model.RistrettoFast Proofs.RistrettoGroup Proofs.Ed25519Group.
Import ListNotations.
Open Scope Z_scope.

Theorem C20_base64_round_trip : forall bs, bytes_ok bs -> b64_decode (b64_encode bs) = Ok bs.
Proof. exact b64_round_trip. Qed.
Print Assumptions C20_base64_round_trip.

(* decoding accepts ONLY canonical unpadded encodings: padding, non-alphabet bytes, length 1 mod 4 and non-zero
   trailing bits are all rejected *)
Theorem C20_base64_strict : forall s bs, b64_decode s = Ok bs -> b64_encode bs = s /\ bytes_ok bs.
Proof. exact b64_decode_canonical. Qed.
Print Assumptions C20_base64_strict.

Theorem C20_base64_injective : forall a b, bytes_ok a -> bytes_ok b -> b64_encode a = b64_encode b -> a = b.
Proof. exact b64_encode_injective. Qed.
Print Assumptions C20_base64_injective.

Theorem C20_base64_rejections : (forall s, In 61 s -> b64_decode s = Err) /\
  (forall s, (length s mod 4 = 1)%nat -> b64_decode s = Err) /\ (forall s, b64_decode s <> Panic).
Proof. exact (conj b64_rejects_padding (conj b64_rejects_len1mod4 b64_decode_no_panic)). Qed.
Print Assumptions C20_base64_rejections.

(* keys and signatures round-trip through bytes and strings; signing with a round-tripped key verifies under the
   round-tripped public key with the round-tripped signature, given a complete underlying scheme *)
Check w_sign_verify_after_round_trips.
Print Assumptions w_sign_verify_after_round_trips.
Check w_from_string_sound.
Print Assumptions w_from_string_sound.
Check w_deserialize_wrong_length.
Print Assumptions w_deserialize_wrong_length.

(* both frontends are the same functions of their primitives: if ed25519-zebra and ed25519-dalek agree as oracles
   (the correspondence check observes exactly that), every wrapper entry point agrees *)
Theorem C20_frontends_agree : forall (skv pkv sgv : bytes -> bool) p2s sgn vfy (skv' pkv' sgv' : bytes -> bool) p2s' sgn' vfy',
  (forall b, skv b = skv' b) -> (forall b, pkv b = pkv' b) -> (forall b, sgv b = sgv' b) -> (forall b, p2s b = p2s' b) ->
  (forall s m, sgn s m = sgn' s m) -> (forall p s m, vfy p s m = vfy' p s m) ->
  (forall k bs, w_deserialize skv pkv sgv k bs = w_deserialize skv' pkv' sgv' k bs) /\
  (forall k bs, w_to_string skv pkv sgv k bs = w_to_string skv' pkv' sgv' k bs) /\
  (forall k s, w_from_string skv pkv sgv k s = w_from_string skv' pkv' sgv' k s) /\
  (forall sk, w_public_key skv pkv sgv p2s sk = w_public_key skv' pkv' sgv' p2s' sk) /\
  (forall sk m, w_sign skv pkv sgv sgn sk m = w_sign skv' pkv' sgv' sgn' sk m) /\
  (forall pk sg m, w_verify skv pkv sgv vfy pk sg m = w_verify skv' pkv' sgv' vfy' pk sg m).
Proof. exact w_frontends_agree. Qed.
Print Assumptions C20_frontends_agree.

(* decision facts about the executable Ed25519 model of BOTH frontends' verification rules (Model/Ed25519.v, tied to
   ed25519-zebra and ed25519-dalek through the wrappers on every run): a signature whose S half is not the canonical
   32-byte encoding of an integer below the group order is never accepted — in particular the malleation S -> S + l of a
   valid signature, and any signature that is not exactly 64 bytes long; verification never panics. (That changing
   the message, R or the key is rejected is unforgeability: observed on the implementation, not provable.) *)
From Strand Require Import Base.ZUtil Model.Ristretto Model.RistrettoFast Model.Ed25519 Proofs.Ed25519P.
Theorem C20_malleated_and_misformed_signatures_rejected : forall K PM pk msg,
  (forall Rb S, length Rb = 32%nat -> 0 <= S -> S + ell < 2 ^ 256 ->
     ed_verify_zebra K PM pk (Rb ++ le_fixed 32 (S + ell)) msg <> Ok true /\
     ed_verify_dalek K PM pk (Rb ++ le_fixed 32 (S + ell)) msg <> Ok true) /\
  (forall sig, length sig <> 64%nat -> (32 <= length sig)%nat ->
     ed_verify_zebra K PM pk sig msg <> Ok true /\ ed_verify_dalek K PM pk sig msg <> Ok true) /\
  (forall sig, ed_verify_zebra K PM pk sig msg <> Panic /\ ed_verify_dalek K PM pk sig msg <> Panic) /\
  (forall seed, length (ed_sign K PM seed msg) = 64%nat).
Proof.
  intros K PM pk msg. split; [intros Rb S; exact (malleated_signature_rejected K PM pk Rb S msg)|].
  split; [intros sig; exact (wrong_length_S_rejected K PM pk sig msg)|].
  split; [intros sig; exact (verify_never_panics K PM pk sig msg)|intros seed; exact (signature_has_64_bytes K PM seed msg)].
Qed.
Print Assumptions C20_malleated_and_misformed_signatures_rejected.

(* the algebraic core of "every signed message verifies", on the executable Ed25519 model and from the PROVED group law of
   the curve (no group hypothesis): for every secret scalar a, nonce r and challenge k, with A = [a]B, R = [r]B and
   S = (r + k a) mod l, the point R - ([k](-A) + [S]B) examined by both verification rules is the neutral element, so the
   cofactored (ZIP-215) test of the model succeeds. The byte layer of a signature (decompress inverts compress) is not
   part of this statement. *)
Theorem C20_verification_equation_complete : forall (K : Kernel) (PM : PMul) a r k, 0 <= a -> 0 <= r -> 0 <= k ->
  let B := pt_base K in
  let A := pm_mul PM a B in
  let R := pm_mul PM r B in
  let s := sc_add K r (sc_mul K k a) in
  ed_is_identity (ed_mul8 K (pt_add K R (pt_neg K (ed_rprime K PM A k s)))) = true.
Proof. exact ed_equation_complete. Qed.
Print Assumptions C20_verification_equation_complete.

(* every public key and every commitment R that the Ed25519 verifiers decode is a valid point of the curve, for every byte
   string (Proofs/RistrettoDecode.v), so the proved group law applies to everything the verification rules compute with *)
From Strand Require Import Proofs.RistrettoDecode.
Theorem C20_decoded_points_are_curve_points : forall (K : Kernel) bs P, ed_decompress K bs = Some P -> valid P.
Proof. exact ed_decompress_valid. Qed.
Print Assumptions C20_decoded_points_are_curve_points.

(* END-TO-END, on the executable Ed25519 model and with no hypothesis: for every seed and every message, the 64-byte
   signature the model produces is accepted under the 32-byte public key the model derives — by the model of
   ed25519-zebra's verification (ZIP-215 rules: decode A and R, cofactored equation) and by the model of ed25519-dalek's
   `verify` (re-encode R' and compare bytes). Ingredients, all proved: the Edwards group law (Base/Edwards.v), [l]B = 0,
   SQRT_RATIO_M1 finds a root whenever one exists (Proofs/SqrtRatio.v: Fermat/Euler for p = 5 mod 8), point decoding
   inverts point encoding (Proofs/Ed25519Complete.v), canonical scalars round-trip. Both frontends sign with the same
   function, so they produce identical signatures and accept each other's. *)
From Strand Require Import Proofs.SqrtRatio Proofs.Ed25519Complete.
Theorem C20_signed_messages_verify : forall (K : Kernel) (PM : PMul) seed msg,
  ed_verify_zebra K PM (ed_pk K PM seed) (ed_sign K PM seed msg) msg = Ok true /\
  ed_verify_dalek K PM (ed_pk K PM seed) (ed_sign K PM seed msg) msg = Ok true.
Proof. intros K PM seed msg. exact (conj (ed_sign_verify_zebra K PM seed msg) (ed_sign_verify_dalek K PM seed msg)). Qed.
Print Assumptions C20_signed_messages_verify.

(* decoding inverts encoding on every valid point (both directions of the key / commitment wire format) *)
Theorem C20_point_codec_roundtrip : forall (K : Kernel) P, valid P ->
  exists Q, ed_decompress K (ed_compress K P) = Some Q /\ valid Q /\ aff Q = aff P.
Proof. exact ed_decompress_compress. Qed.
Print Assumptions C20_point_codec_roundtrip.
