(* C09 — threshold shares always match the dealer's public commitments (Feldman check). *)
From Coq Require Import ZArith Znumtheory List.
From Strand Require Import Base.ZUtil Base.Poly Model.Outcome Model.Backend Model.ZBackend Model.Zkp Model.Keymaker
  Model.Exec Proofs.Laws Proofs.ZLaws Proofs.ZInst Proofs.ThresholdP
  Base.ZpField Base.Edwards Model.Ristretto Model.RistrettoFast Model.RBackend Proofs.RistrettoGroup Proofs.EdwardsBackend.
Import ListNotations.
Open Scope Z_scope.

(* for EVERY threshold t >= 1, receiver index j >= 0 and coefficient vector (any length, any non-negative
   values incl. 0 and q-1) — no bound on the number of trustees: g^share = product of commitment_i^((j+1)^i) *)
Theorem C09_feldman_consistent : forall K fl P, GoodParams P ->
  forall j t coeffs s, 0 <= j -> (1 <= t)%nat -> coeffs <> [] -> Forall (fun c => 0 <= c) coeffs ->
  compute_peer_share (ZB K fl P) j t coeffs = Ok s ->
  b_gpow (ZB K fl P) s = verification_key_factor (ZB K fl P) (map (b_gpow (ZB K fl P)) coeffs) t j.
Proof. exact feldman_consistent_ZB. Qed.
Print Assumptions C09_feldman_consistent.

(* the share is the dealer polynomial evaluated at j+1, reduced mod q *)
Theorem C09_share_is_polynomial_value : forall K fl P, GoodParams P ->
  forall x t coeffs, 0 <= x -> (1 <= t)%nat -> coeffs <> [] -> Forall (fun c => 0 <= c) coeffs ->
  exists s, eval_poly (ZB K fl P) x t coeffs = Ok s /\ 0 <= s < p_q P /\ s mod p_q P = peval (firstn t coeffs) x mod p_q P.
Proof. exact eval_poly_spec_ZB. Qed.
Print Assumptions C09_share_is_polynomial_value.

(* a share altered by any amount that is non-zero mod q fails the comparison *)
Theorem C09_tamper_detected : forall K fl P, SafePrime P ->
  forall s d, 0 <= s -> 0 <= d -> d mod p_q P <> 0 -> b_gpow (ZB K fl P) (s + d) <> b_gpow (ZB K fl P) s.
Proof. exact feldman_detects_tamper_ZB. Qed.
Print Assumptions C09_tamper_detected.

(* the same for any lawful backend whose from_u64 is the canonical embedding (instantiated at the Edwards group below) *)
Check feldman_consistent.
Print Assumptions feldman_consistent.

Example C09_nonvacuous :
  let B := ZB K_ref Bigint (mkP 2039) in
  exists s, compute_peer_share B 16 17 (map Z.of_nat (seq 1 17)) = Ok s /\
            b_gpow B s = verification_key_factor B (map (b_gpow B) (map Z.of_nat (seq 1 17))) 17 16.
Proof. eexists. split; vm_compute; reflexivity. Qed.

(* the curve25519 Edwards group with the ristretto scalar ring: Feldman consistency without hypotheses *)
Theorem C09_edwards_group : forall (K : Kernel) j t coeffs s, 0 <= j -> (1 <= t)%nat -> coeffs <> [] ->
  Forall (fun c => 0 <= c) coeffs ->
  compute_peer_share (AB K) j t coeffs = Ok s ->
  b_gpow (AB K) s = verification_key_factor (AB K) (map (b_gpow (AB K)) coeffs) t j.
Proof. intro K. exact (feldman_consistent (AB K) memA (AB_laws K) (AB_from_u64_ok K)). Qed.
Print Assumptions C09_edwards_group.
