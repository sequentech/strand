(* C15 — every backend obeys the group/exponent laws; constants form a safe-prime group; results canonical.
   Each proof is `exact <lemma>` from Proofs/ or a conjunction of such lemmas. *)
From Coq Require Import ZArith Znumtheory List.
From Strand Require Import Base.ZUtil Generated.Constants Model.Outcome Model.Backend Model.ZBackend
  Model.Exec Model.Params2048 Model.Ristretto Proofs.Laws Proofs.ZLaws Proofs.ZInst Proofs.PrimeCerts
  Base.ZpField Base.Edwards Model.RistrettoFast Model.RBackend Proofs.RistrettoGroup Proofs.EdwardsBackend.
Open Scope Z_scope.

(* the code's own operations satisfy the laws of a commutative group of exponent q acted on by Z_q
   (associativity, commutativity, identity, inverses, a^(x+y), (a^x)^y, (ab)^x, a^q = 1, canonical
   results, closure), for every kernel, both multiplicative backends, every admissible parameter set *)
Theorem C15_group_laws : forall K fl P, GoodParams P -> Laws (ZB K fl P) (member P).
Proof. exact ZB_laws. Qed.
Print Assumptions C15_group_laws.

Theorem C15_small_sets_are_safe_prime_groups : forall p, In p small_moduli -> SafePrime (mkP p).
Proof. exact small_sets_safe. Qed.
Print Assumptions C15_small_sets_are_safe_prime_groups.

(* shipped constants, regenerated from src/backend.rs on every run *)
Theorem C15_constants :
  p2048 = 2 * q2048 + 1 /\ 1 < g2048 < p2048 /\ powm g2048 q2048 p2048 = 1 /\ cofactor2048 = 2 /\
  Z.odd q2048 = true.
Proof. exact (conj p2048_safe_shape (conj g2048_range (conj g2048_order (conj cofactor_two q2048_odd)))). Qed.
Print Assumptions C15_constants.

Theorem C15_P2048_admissible : GoodParams P2048.
Proof. exact good_P2048. Qed.
Print Assumptions C15_P2048_admissible.

(* primality of p2048, q2048 is a named hypothesis: nothing installed can certify it *)
Theorem C15_P2048_safe_prime : prime p2048 -> prime q2048 -> SafePrime P2048.
Proof. exact safe_P2048. Qed.
Print Assumptions C15_P2048_safe_prime.

(* ... and prime p2048 follows from prime q2048 (Pocklington step, Base/Pocklington.v, the power evaluated by the kernel
   over BigN): the ONLY unproved number-theoretic hypothesis about the shipped group is [prime q2048]. *)
Theorem C15_P2048_safe_prime_from_q : prime q2048 -> SafePrime P2048.
Proof. exact safe_P2048_from_q. Qed.
Print Assumptions C15_P2048_safe_prime_from_q.

(* the 62-bit execution parameter set is a safe-prime group unconditionally (Pocklington certificates) *)
Theorem C15_P62_safe_prime : SafePrime (mkP 3404364645881581367).
Proof. exact P62_safe_prime. Qed.
Print Assumptions C15_P62_safe_prime.

(* the ristretto255 / Ed25519 group order and the curve25519 field characteristic used by the executable model of the
   third backend are prime (Pocklington certificate chains checked by the kernel) *)
Theorem C15_ristretto_order_and_field_prime :
  prime ell /\ prime fp /\ ell = 2 ^ 252 + 27742317777372353535851937790883648493 /\ fp = 2 ^ 255 - 19.
Proof. exact (conj ell_prime (conj fp_prime ell_fp_values)). Qed.
Print Assumptions C15_ristretto_order_and_field_prime.

(* ristretto255 backend: the curve arithmetic of the executable model (extended coordinates over GF(2^255-19),
   unified addition, negation, double-and-add) IS the group law of the Edwards curve -x^2+y^2 = 1+d x^2 y^2,
   which is proved to be a commutative group law (complete, closed, associative, neutral element, inverses) —
   no hypothesis: p prime, d a non-residue and i^2 = -1 are established by the kernel. *)
Theorem C15_ristretto_curve_arithmetic : forall K : Kernel,
  (forall P Q, valid P -> valid Q ->
     valid (pt_add K P Q) /\ aff (pt_add K P Q) = Edwards.eadd Fp f1 fa fm fs fd dF (aff P) (aff Q)) /\
  (forall P, valid P -> valid (pt_neg K P) /\ aff (pt_neg K P) = Edwards.eneg Fp fo (aff P)) /\
  (forall e P, valid P ->
     valid (pt_mul K e P) /\ aff (pt_mul K e P) = Edwards.nmul Fp f0 f1 fa fm fs fd dF (Z.to_nat e) (aff P)) /\
  (valid pt_id /\ aff pt_id = Edwards.eid Fp f0 f1) /\
  valid (pt_base K) /\
  Edwards.nmul Fp f0 f1 fa fm fs fd dF Ln (aff (pt_base K)) = Edwards.eid Fp f0 f1 /\
  (forall P Q, valid P -> valid Q -> aff P = aff Q -> pt_eqb K P Q = true).
Proof.
  intro K. exact (conj (pt_add_correct K) (conj (pt_neg_correct K) (conj (pt_mul_correct K)
    (conj valid_id (conj (valid_base K) (conj (base_order K) (pt_eqb_of_aff K))))))).
Qed.
Print Assumptions C15_ristretto_curve_arithmetic.

(* RFC 9496 equality (the backend's PartialEq) is exactly equality of curve points modulo the four 4-torsion points
   (0, +-1), (+-i, 0): equal ristretto elements are the same coset, different cosets never compare equal *)
Theorem C15_ristretto_equality_is_coset_equality : forall (K : Kernel) P Q, valid P -> valid Q ->
  (pt_eqb K P Q = true <->
   tors4 Fp f0 f1 fo iF (Edwards.eadd Fp f1 fa fm fs fd dF (aff P) (Edwards.eneg Fp fo (aff Q)))).
Proof. exact pt_eqb_iff. Qed.
Print Assumptions C15_ristretto_equality_is_coset_equality.

Theorem C15_edwards_group_law :
  let onc := Edwards.onc Fp f1 fa fm fs dF in
  let add := Edwards.eadd Fp f1 fa fm fs fd dF in
  let id := Edwards.eid Fp f0 f1 in
  let neg := Edwards.eneg Fp fo in
  (forall P Q, onc P -> onc Q -> onc (add P Q)) /\
  (forall P Q R, onc P -> onc Q -> onc R -> add (add P Q) R = add P (add Q R)) /\
  (forall P Q, add P Q = add Q P) /\
  (forall P, add id P = P) /\ onc id /\
  (forall P, onc P -> onc (neg P) /\ add P (neg P) = id).
Proof.
  cbv zeta.
  exact (conj E_onc (conj E_assoc (conj E_comm (conj E_id_l (conj E_onc_id
          (fun P C => conj (E_onc_neg P C) (E_neg_r P C))))))).
Qed.
Print Assumptions C15_edwards_group_law.

(* ... packaged as a backend with Leibniz equality (affine points of order dividing l, ristretto scalar ring): it
   satisfies the SAME [Laws] record as the multiplicative backends, with no hypothesis; and the executable ristretto
   backend record maps onto it homomorphically, operation by operation *)
Theorem C15_edwards_backend_laws : forall K : Kernel, Laws (AB K) memA.
Proof. exact AB_laws. Qed.
Print Assumptions C15_edwards_backend_laws.

Theorem C15_ristretto_maps_onto_edwards_backend : forall (K : Kernel) (PM : PMul),
  aff (b_gen (RB K PM)) = b_gen (AB K) /\ aff (b_one (RB K PM)) = b_one (AB K) /\
  (forall P Q, valid P -> valid Q ->
     valid (b_mulp (RB K PM) P Q) /\ aff (b_mulp (RB K PM) P Q) = b_mulp (AB K) (aff P) (aff Q)) /\
  (forall P, valid P -> exists P', b_invp (RB K PM) P = Ok P' /\ valid P' /\ b_invp (AB K) (aff P) = Ok (aff P')) /\
  (forall P x, valid P -> valid (b_pow (RB K PM) P x) /\ aff (b_pow (RB K PM) P x) = b_pow (AB K) (aff P) x) /\
  (forall P Q, valid P -> valid Q -> b_eqb (AB K) (aff P) (aff Q) = true -> b_eqb (RB K PM) P Q = true) /\
  (forall x y, b_xadd (RB K PM) x y = b_xadd (AB K) x y /\ b_xmul (RB K PM) x y = b_xmul (AB K) x y) /\
  (forall bs, b_hash_to_exp (RB K PM) bs = b_hash_to_exp (AB K) bs).
Proof. exact rb_ab_morphism. Qed.
Print Assumptions C15_ristretto_maps_onto_edwards_backend.

(* non-vacuity: a concrete parameter set meets the hypotheses *)
Example C15_nonvacuous : GoodParams (mkP 23) /\ member (mkP 23) 4 /\ member (mkP 23) 1.
Proof.
  assert (S : SafePrime (mkP 23)) by (apply small_sets_safe; vm_compute; auto).
  split; [exact (sp_good _ S)|]. split; apply memberb_spec; vm_compute; auto.
Qed.
