(* C12 — serialization round-trips exactly, is injective, rejects trailing / missing bytes.
   RT v wr rd  :=  forall a rest, v a -> rd (wr a ++ rest) = Ok (a, rest)      (round trip under any suffix)
   PF v wr rd  :=  forall a b x, v a -> x <> [] -> b ++ x = wr a -> rd b = Err  (every strict prefix fails)
   and the four generic consequences below turn them into the API-level statements for `strict rd`
   (= StrandDeserialize::strand_deserialize). *)
From Coq Require Import ZArith List.
From Strand Require Import Base.ZUtil Model.Outcome Model.Codec Model.Backend Model.ZBackend Model.Zkp Model.Wire
  Proofs.ZLaws Proofs.CodecP Proofs.WireP.
Import ListNotations.
Open Scope Z_scope.

Theorem C12_decode_encode : forall {A} (v : A -> Prop) wr rd, RT v wr rd ->
  forall a, v a -> strict rd (wr a) = Ok a.
Proof. exact @rt_de. Qed.
Print Assumptions C12_decode_encode.

Theorem C12_appended_bytes_rejected : forall {A} (v : A -> Prop) wr rd, RT v wr rd ->
  forall a rest, v a -> rest <> [] -> strict rd (wr a ++ rest) = Err.
Proof. exact @rt_trailing. Qed.
Print Assumptions C12_appended_bytes_rejected.

Theorem C12_injective : forall {A} (v : A -> Prop) wr rd, RT v wr rd ->
  forall a b, v a -> v b -> wr a = wr b -> a = b.
Proof. exact @rt_inj. Qed.
Print Assumptions C12_injective.

Theorem C12_removed_bytes_rejected : forall {A} (v : A -> Prop) wr rd, PF v wr rd ->
  forall a b, v a -> (exists x, x <> [] /\ b ++ x = wr a) -> strict rd b = Err.
Proof. exact @pf_de. Qed.
Print Assumptions C12_removed_bytes_rejected.

Section AllWireTypes.
  Variable K : Kernel.
  Variable fl : flavor.
  Variable P : Params.
  Variable N : Z.      (* byte budget of the modulus: p < 2^(8N), N <= 2^32 - 1 so every u32 length prefix is exact *)
  Hypothesis HN : 1 <= N <= 4294967295.
  Hypothesis Hp1 : 1 < p_p P.
  Hypothesis HpN : p_p P < 2 ^ (8 * N).
  Hypothesis Hq : 0 < p_q P <= p_p P.

  (* every wire type of both multiplicative backends is such a codec: values are group members / canonical
     exponents / plaintexts below 2^(8N); vectors have fewer than 2^32 items *)
  Theorem C12_all_types_round_trip :
    RT (vE P) (wr_E fl) (rd_E K fl P) /\ RT (vX P) (wr_X fl) (rd_X fl P) /\ RT (vP N) (wr_P fl) (rd_P fl) /\
    RT (v_ct K fl P) (wr_ct K fl P) (rd_ct K fl P) /\ RT (vE P) (wr_pk fl) (rd_pk K fl P) /\
    RT (v_sk P) (wr_skp fl) (rd_sk K fl P) /\
    RT (v_schnorr K fl P) (wr_schnorr K fl P) (rd_schnorr K fl P) /\ RT (v_cp K fl P) (wr_cp K fl P) (rd_cp K fl P) /\
    RT (v_vecE fl P) (wr_vecE fl) (rd_vecE K fl P) /\ RT (v_vecX fl P) (wr_vecX fl) (rd_vecX fl P) /\
    RT (v_vecP fl N) (wr_vecP fl) (rd_vecP fl) /\ RT (v_vecC K fl P) (wr_vecC K fl P) (rd_vecC K fl P) /\
    RT (v_vecCP K fl P) (wr_vecCP K fl P) (rd_vecCP K fl P) /\ RT (v_proof fl P) (wr_proof fl) (rd_proof K fl P).
  Proof. repeat split; eauto using rt_E, rt_X, rt_P, rt_ct, rt_pk, rt_sk, rt_schnorr, rt_cp, rt_vecE, rt_vecX, rt_vecP, rt_vecC, rt_vecCP, rt_proof. Qed.

  Theorem C12_all_types_truncation_fails :
    PF (vE P) (wr_E fl) (rd_E K fl P) /\ PF (vX P) (wr_X fl) (rd_X fl P) /\ PF (vP N) (wr_P fl) (rd_P fl) /\
    PF (v_ct K fl P) (wr_ct K fl P) (rd_ct K fl P) /\ PF (vE P) (wr_pk fl) (rd_pk K fl P) /\
    PF (v_sk P) (wr_skp fl) (rd_sk K fl P) /\
    PF (v_schnorr K fl P) (wr_schnorr K fl P) (rd_schnorr K fl P) /\ PF (v_cp K fl P) (wr_cp K fl P) (rd_cp K fl P) /\
    PF (v_vecE fl P) (wr_vecE fl) (rd_vecE K fl P) /\ PF (v_vecX fl P) (wr_vecX fl) (rd_vecX fl P) /\
    PF (v_vecP fl N) (wr_vecP fl) (rd_vecP fl) /\ PF (v_vecC K fl P) (wr_vecC K fl P) (rd_vecC K fl P) /\
    PF (v_vecCP K fl P) (wr_vecCP K fl P) (rd_vecCP K fl P) /\ PF (v_proof fl P) (wr_proof fl) (rd_proof K fl P).
  Proof. repeat split; eauto using pf_E, pf_X, pf_P, pf_ct, pf_pk, pf_sk, pf_schnorr, pf_cp, pf_vecE, pf_vecX, pf_vecP, pf_vecC, pf_vecCP, pf_proof. Qed.
End AllWireTypes.
Print Assumptions C12_all_types_round_trip.
Print Assumptions C12_all_types_truncation_fails.

(* ristretto scalars (32 bytes, canonical) and plaintexts (30 bytes) are codecs in the same sense, so the four generic
   consequences above hold for them; ristretto points are 32 fixed bytes whose round trip is RFC 9496 ENCODE/DECODE:
   ENCODE (DECODE bs) = bs is proved further down, DECODE (ENCODE P) ~ P is only executed and tied to curve25519-dalek *)
From Strand Require Import Model.Ristretto Model.RBackend Proofs.RistrettoWireP.
Theorem C12_ristretto_scalars_and_plaintexts :
  RT (fun x => 0 <= x < ell) sc_to_bytes rd_RX /\ PF (fun x => 0 <= x < ell) sc_to_bytes rd_RX /\
  RT (fun m : bytes => length m = 30%nat) (fun m => m) rd_RP /\ PF (fun m : bytes => length m = 30%nat) (fun m => m) rd_RP.
Proof. exact (conj rt_RX (conj pf_RX (conj rt_RP pf_RP))). Qed.
Print Assumptions C12_ristretto_scalars_and_plaintexts.

(* ristretto elements: the encoding depends only on the curve point (not on the projective representation the arithmetic
   happens to produce), and a decoded element re-encodes to the bytes it came from — so equal group members serialise equal
   and decode(encode) / encode(decode) are identities on everything that comes off the wire (Proofs/RistrettoEncode.v,
   Proofs/RistrettoCanon.v). [sq_ok]: the encoder's inverse square root exists — true of every decoded point. *)
From Strand Require Import Base.ZUtil Base.ZpField Base.Edwards Model.Ristretto Model.RBackend Proofs.CodecP Proofs.RistrettoGroup
  Proofs.RistrettoCanon Proofs.RistrettoEncode.
Theorem C12_ristretto_encoding_depends_on_the_point_only : forall (K : Kernel) P Q, valid P -> valid Q -> aff P = aff Q ->
  (let '(x, y) := aff P in W1 x y = f0 \/ sq_ok (x, y)) -> compress K P = compress K Q.
Proof. exact compress_aff. Qed.
Print Assumptions C12_ristretto_encoding_depends_on_the_point_only.

Theorem C12_ristretto_encode_decode : forall (K : Kernel) bs P, bytes_ok bs -> decompress K bs = Some P -> compress K P = bs.
Proof. exact decompress_canonical. Qed.
Print Assumptions C12_ristretto_encode_decode.
