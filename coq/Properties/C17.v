(* C17 — derived generators are deterministic, valid, prefix-stable; distinctness is a property of SHA-512
   outputs and is established by kernel computation for concrete seeds, never assumed. *)
From Coq Require Import ZArith List Bool.
From Strand Require Import Base.ZUtil Base.FastArith Model.Outcome Model.Codec Model.Backend Model.ZBackend Model.Exec
  Model.Params2048 Proofs.ZLaws Proofs.ZInst Proofs.GeneratorsP.
Import ListNotations.
Open Scope Z_scope.

(* a function of (seed, count) by construction; prefix-stable for every seed and every count *)
Theorem C17_prefix_stable : forall K fl P (n k : nat) seed l, (k <= n)%nat ->
  generators K fl P n seed = Ok l -> generators K fl P k seed = Ok (firstn k l).
Proof. exact generators_prefix_stable. Qed.
Print Assumptions C17_prefix_stable.

Theorem C17_length : forall K fl P n seed l, generators K fl P n seed = Ok l -> length l = n.
Proof. exact generators_length. Qed.
Print Assumptions C17_length.

(* the i-th generator is a function of (seed, i) alone *)
Theorem C17_ith_depends_on_seed_and_index : forall K fl P n seed l i, generators K fl P n seed = Ok l -> (i < n)%nat ->
  exists g buf, gen_try K fl P 64 (seed ++ [103; 103; 101; 110]) (Z.of_nat i + 1) 0 = Ok (g, buf) /\ nth_error l i = Some g.
Proof. exact generators_nth. Qed.
Print Assumptions C17_ith_depends_on_seed_and_index.

(* valid: members of the order-q subgroup, >= 2 hence not the identity — for every safe-prime parameter set *)
Theorem C17_valid : forall K fl P, SafePrime P -> forall n seed l,
  generators K fl P n seed = Ok l -> Forall (fun g => member P g /\ 2 <= g) l.
Proof. exact generators_valid. Qed.
Print Assumptions C17_valid.

(* documented derivation: which bytes are hashed (seed ++ "ggen" ++ (index, count) pairs appended on every retry),
   reduction mod p, cofactor power, acceptance iff >= 2 *)
Check gen_try_spec.
Print Assumptions gen_try_spec.

Theorem C17_never_an_error : forall K fl P n seed, generators K fl P n seed <> Err.
Proof. exact generators_not_err. Qed.
Print Assumptions C17_never_an_error.

(* on a tiny group collisions are expected (birthday bound): the claim is NOT a consequence of the code *)
Check gens50_bigint_collision.

(* concrete seeds at 2048 bits (kernel computation with the BigZ evaluator): pairwise distinct, different from g *)
Theorem C17_p2048_empty_seed_32_distinct : forall l, generators K_fast Bigint P2048 32 [] = Ok l ->
  NoDup l /\ ~ In (p_g P2048) l.
Proof.
  intros l H.
  assert (E : match generators K_fast Bigint P2048 32 [] with
              | Ok l' => nodupb l' && negb (existsb (Z.eqb (p_g P2048)) l') | _ => false end = true).
  { rewrite generators_digests50 by (repeat constructor). vm_compute. reflexivity. }
  rewrite H in E. apply andb_prop in E. destruct E as [E1 E2]. split.
  - apply nodupb_sound. exact E1.
  - intro Hin. apply Bool.negb_true_iff in E2.
    assert (existsb (Z.eqb (p_g P2048)) l = true) by (apply existsb_exists; exists (p_g P2048); split; [exact Hin|apply Z.eqb_refl]).
    congruence.
Qed.
Print Assumptions C17_p2048_empty_seed_32_distinct.
