(* Strand.Base.Poly

   Polynomials over Z given as coefficient lists (lowest degree first), evaluated by
   Horner's rule, with two facts modulo a prime q:

   - [more_roots_than_coeffs] : as many roots, pairwise distinct mod q, as coefficients
                         ==> every coefficient is 0 mod q ([root_bound], [root_bound_coeffs]);
   - [lagrange_at_zero]: Lagrange interpolation at 0, for any coefficients [lam]
                         satisfying the defining congruence.
 *)

From Coq Require Import ZArith Znumtheory List Lia Bool.
From Coq Require Import Morphisms Setoid.
From Strand Require Import Base.ZUtil Base.InvM.
Import ListNotations.
Open Scope Z_scope.

Definition peval (cs : list Z) (x : Z) : Z := fold_right (fun c acc => c + x * acc) 0 cs.

Definition zsum (l : list Z) : Z := fold_right Z.add 0 l.
Definition zprod (l : list Z) : Z := fold_right Z.mul 1 l.

(* the other points of xs, compared as integers
   (this mirrors `if *p == trustee { continue }` in the code) *)
Definition others (i : Z) (xs : list Z) : list Z := filter (fun j => negb (j =? i)) xs.

(* Congruence modulo q as a setoid (re-exporting the stdlib [Zdiv.eqm] instances,
   which are section-local there) *)

#[export] Instance eqm_Equivalence (q : Z) : Equivalence (eqm q) := eqm_setoid q.
#[export] Instance eqm_add_Proper (q : Z) : Proper (eqm q ==> eqm q ==> eqm q) Z.add := Zplus_eqm q.
#[export] Instance eqm_sub_Proper (q : Z) : Proper (eqm q ==> eqm q ==> eqm q) Z.sub := Zminus_eqm q.
#[export] Instance eqm_mul_Proper (q : Z) : Proper (eqm q ==> eqm q ==> eqm q) Z.mul := Zmult_eqm q.
#[export] Instance eqm_opp_Proper (q : Z) : Proper (eqm q ==> eqm q) Z.opp := Zopp_eqm q.

Lemma peval_nil (x : Z) : peval [] x = 0.
Proof. reflexivity. Qed.

Lemma peval_cons (c : Z) (cs : list Z) (x : Z) : peval (c :: cs) x = c + x * peval cs x.
Proof. reflexivity. Qed.

Lemma zsum_nil : zsum [] = 0.
Proof. reflexivity. Qed.

Lemma zsum_cons (a : Z) (l : list Z) : zsum (a :: l) = a + zsum l.
Proof. reflexivity. Qed.

Lemma zprod_nil : zprod [] = 1.
Proof. reflexivity. Qed.

Lemma zprod_cons (a : Z) (l : list Z) : zprod (a :: l) = a * zprod l.
Proof. reflexivity. Qed.

Lemma peval_at_zero (cs : list Z) : peval cs 0 = nth 0 cs 0.
Proof.
  destruct cs as [|c cs']; [reflexivity|].
  rewrite peval_cons. cbn [nth]. lia.
Qed.

Lemma peval_nonneg (cs : list Z) (x : Z) : 0 <= x -> Forall (fun c => 0 <= c) cs -> 0 <= peval cs x.
Proof.
  intros Hx. induction 1 as [|c cs' Hc _ IH]; [rewrite peval_nil; lia|].
  rewrite peval_cons. nia.
Qed.

Lemma others_cons_eq (i : Z) (xs : list Z) : others i (i :: xs) = others i xs.
Proof. unfold others. cbn [filter]. rewrite Z.eqb_refl. reflexivity. Qed.

Lemma others_cons_ne (i a : Z) (xs : list Z) : a <> i -> others i (a :: xs) = a :: others i xs.
Proof. intros Hne. unfold others. cbn [filter]. apply Z.eqb_neq in Hne. rewrite Hne. reflexivity. Qed.

Lemma others_In (i : Z) (xs : list Z) (j : Z) : In j (others i xs) <-> In j xs /\ j <> i.
Proof. unfold others. rewrite filter_In, negb_true_iff, Z.eqb_neq. reflexivity. Qed.

Lemma others_length (i : Z) (xs : list Z) :
  (length (others i xs) <= length xs)%nat /\ (In i xs -> (length (others i xs) < length xs)%nat).
Proof.
  induction xs as [|a xs' [IHle IHlt]]; [cbn; split; [lia|contradiction]|].
  destruct (Z.eq_dec a i) as [->|Hne].
  - rewrite others_cons_eq. cbn [length]. lia.
  - rewrite (others_cons_ne i a xs' Hne). cbn [length In]. split; [lia|].
    intros [Heq|Hin]; [contradiction|]. specialize (IHlt Hin). lia.
Qed.

Lemma zprod_In_zero (l : list Z) : In 0 l -> zprod l = 0.
Proof.
  induction l as [|a l' IH]; intros Hin; [destruct Hin|].
  rewrite zprod_cons. destruct Hin as [->|Hin]; [reflexivity|].
  rewrite (IH Hin). apply Z.mul_0_r.
Qed.

Lemma zsum_map_zero (f : Z -> Z) (l : list Z) :
  (forall i, In i l -> f i = 0) -> zsum (map f l) = 0.
Proof.
  induction l as [|a l' IH]; intros Hall; [reflexivity|].
  cbn [map]. rewrite zsum_cons, (Hall a (or_introl eq_refl)), IH; [reflexivity|].
  intros i Hi. apply Hall. right. exact Hi.
Qed.

Lemma zsum_map_single (f : Z -> Z) (k : Z) (l : list Z) :
  NoDup l -> In k l -> (forall i, In i l -> i <> k -> f i = 0) -> zsum (map f l) = f k.
Proof.
  intros Hnd. induction Hnd as [|a l' Hnotin _ IH]; intros Hin Hz; [destruct Hin|].
  cbn [map]. rewrite zsum_cons. destruct Hin as [->|Hin].
  - rewrite zsum_map_zero; [ring|].
    intros i Hi. apply Hz; [right; exact Hi|]. intros ->. contradiction.
  - rewrite (Hz a (or_introl eq_refl)) by (intros ->; contradiction).
    apply IH; [exact Hin|]. intros i Hi. apply Hz. right. exact Hi.
Qed.

Lemma zsum_map_eqm (q : Z) (f g : Z -> Z) (l : list Z) :
  (forall i, In i l -> eqm q (f i) (g i)) -> eqm q (zsum (map f l)) (zsum (map g l)).
Proof.
  induction l as [|a l' IH]; intros Hall; [reflexivity|].
  cbn [map]. rewrite !zsum_cons.
  rewrite (Hall a (or_introl eq_refl)), IH; [reflexivity|].
  intros i Hi. apply Hall. right. exact Hi.
Qed.

Lemma NoDup_map_inj (f : Z -> Z) (l : list Z) :
  NoDup (map f l) -> forall a b, In a l -> In b l -> f a = f b -> a = b.
Proof.
  induction l as [|c l' IH]; intros Hnd a b Ha Hb Hab; [destruct Ha|].
  cbn [map] in Hnd. apply NoDup_cons_iff in Hnd. destruct Hnd as [Hnotin Hnd'].
  destruct Ha as [->|Ha]; destruct Hb as [->|Hb].
  - reflexivity.
  - exfalso. apply Hnotin. rewrite Hab. apply in_map. exact Hb.
  - exfalso. apply Hnotin. rewrite <- Hab. apply in_map. exact Ha.
  - apply (IH Hnd' a b Ha Hb Hab).
Qed.

Lemma prime_gt_1 (q : Z) : prime q -> 1 < q.
Proof. intros [Hgt _]. exact Hgt. Qed.

Lemma eqm_sub_0 (q a b : Z) : a mod q = b mod q <-> (a - b) mod q = 0.
Proof.
  split; intros H.
  - rewrite Zminus_mod, H, Z.sub_diag. apply Zmod_0_l.
  - rewrite <- (Z.sub_add b a) at 1. rewrite Zplus_mod, H, Z.add_0_l. apply Zmod_mod.
Qed.

Lemma prime_mul_mod0 (q a b : Z) : prime q -> (a * b) mod q = 0 -> a mod q = 0 \/ b mod q = 0.
Proof.
  intros Hq. pose proof (prime_gt_1 q Hq) as Hgt.
  rewrite !Z.mod_divide by lia. apply (prime_mult q Hq).
Qed.

Lemma zprod_mod_nonzero (q : Z) (l : list Z) :
  prime q -> (forall x, In x l -> x mod q <> 0) -> zprod l mod q <> 0.
Proof.
  intros Hq. pose proof (prime_gt_1 q Hq) as Hgt.
  induction l as [|a l' IH]; intros Hall H0.
  - rewrite zprod_nil, Z.mod_1_l in H0 by exact Hgt. discriminate H0.
  - rewrite zprod_cons in H0. destruct (prime_mul_mod0 q _ _ Hq H0) as [Ha|Hl].
    + exact (Hall a (or_introl eq_refl) Ha).
    + apply IH; [|exact Hl]. intros x Hx. apply Hall. right. exact Hx.
Qed.

Lemma others_diffs_nonzero (q i : Z) (xs : list Z) :
  prime q -> (forall j, In j xs -> j <> i -> j mod q <> i mod q) ->
  zprod (map (fun j => j - i) (others i xs)) mod q <> 0.
Proof.
  intros Hq Hdiff. apply (zprod_mod_nonzero q _ Hq).
  intros x Hx H0. apply in_map_iff in Hx. destruct Hx as [j [<- Hj]].
  apply others_In in Hj. destruct Hj as [Hj Hne].
  apply eqm_sub_0 in H0. exact (Hdiff j Hj Hne H0).
Qed.

Definition minv (q d : Z) : Z := match invm d q with Some r => r | None => 0 end.

Lemma minv_spec (q d : Z) : prime q -> d mod q <> 0 -> eqm q (minv q d * d) 1.
Proof.
  intros Hq Hnd. destruct (invm_prime d q Hq Hnd) as (r & E & _ & Hr).
  unfold minv, eqm. rewrite E, Z.mul_comm, Hr. symmetry. apply Z.mod_1_l, prime_gt_1, Hq.
Qed.

Lemma eqm_div_by_inv (q lam mu W N : Z) :
  eqm q (lam * W) N -> eqm q (mu * W) 1 -> eqm q (mu * N) lam.
Proof.
  intros Hl Hm. rewrite <- Hl.
  replace (mu * (lam * W)) with (lam * (mu * W)) by ring.
  rewrite Hm, Z.mul_1_r. reflexivity.
Qed.

(* Synthetic division by (x - r) *)

Fixpoint pquot (cs : list Z) (r : Z) : list Z :=
  match cs with
  | [] => []
  | _ :: cs' =>
      match cs' with
      | [] => []
      | _ :: _ => peval cs' r :: pquot cs' r
      end
  end.

Lemma pquot_cons2 (c d : Z) (cs : list Z) (r : Z) :
  pquot (c :: d :: cs) r = peval (d :: cs) r :: pquot (d :: cs) r.
Proof. reflexivity. Qed.

Lemma pquot_length (cs : list Z) (r : Z) : length (pquot cs r) = pred (length cs).
Proof.
  induction cs as [|c cs' IH]; [reflexivity|].
  destruct cs' as [|d cs'']; [reflexivity|].
  rewrite pquot_cons2. cbn [length]. rewrite IH. reflexivity.
Qed.

Lemma pquot_spec (cs : list Z) (r x : Z) :
  peval cs x = peval cs r + (x - r) * peval (pquot cs r) x.
Proof.
  induction cs as [|c cs' IH].
  - cbn. ring.
  - destruct cs' as [|d cs''].
    + cbn. ring.
    + rewrite pquot_cons2. remember (d :: cs'') as t eqn:Ht.
      rewrite (peval_cons c t x), (peval_cons c t r), (peval_cons (peval t r) (pquot t r) x).
      rewrite IH. ring.
Qed.

Lemma pquot_root (q : Z) (cs : list Z) (r r' : Z) : prime q ->
  peval cs r mod q = 0 -> peval cs r' mod q = 0 -> r' mod q <> r mod q ->
  peval (pquot cs r) r' mod q = 0.
Proof.
  intros Hq Hr Hr' Hne.
  rewrite (pquot_spec cs r r'), Zplus_mod, Hr, Z.add_0_l, Zmod_mod in Hr'.
  destruct (prime_mul_mod0 q _ _ Hq Hr') as [H|H]; [|exact H].
  apply eqm_sub_0 in H. contradiction.
Qed.

(* c_k = b_k - r * b_(k+1) where b_0 = peval cs r and [b_1; b_2; ...] = pquot cs r *)
Lemma pquot_coeffs (q : Z) (cs : list Z) (r : Z) :
  peval cs r mod q = 0 -> Forall (fun c => c mod q = 0) (pquot cs r) ->
  Forall (fun c => c mod q = 0) cs.
Proof.
  induction cs as [|c cs' IH]; intros Hr Hquot; [constructor|].
  assert (Htl : peval cs' r mod q = 0 /\ Forall (fun c => c mod q = 0) cs').
  { destruct cs' as [|d cs'']; [split; [reflexivity|constructor]|].
    rewrite pquot_cons2 in Hquot. apply Forall_cons_iff in Hquot. destruct Hquot as [Hd Hquot].
    split; [exact Hd|]. apply IH; assumption. }
  destruct Htl as [Htl Hcs']. constructor; [|exact Hcs'].
  rewrite peval_cons, Zplus_mod, Zmult_mod, Htl, Z.mul_0_r, Z.add_0_r, !Zmod_mod in Hr. exact Hr.
Qed.

Lemma peval_coeffs_zero (q : Z) (cs : list Z) (x : Z) :
  Forall (fun c => c mod q = 0) cs -> peval cs x mod q = 0.
Proof.
  induction 1 as [|c cs' Hc _ IH]; [apply Zmod_0_l|].
  rewrite peval_cons, Zplus_mod, Zmult_mod, Hc, IH, Z.mul_0_r. reflexivity.
Qed.

Lemma more_roots_than_coeffs (q : Z) : prime q -> forall roots cs : list Z,
  (length cs <= length roots)%nat ->
  NoDup (map (fun r => r mod q) roots) ->
  (forall r, In r roots -> peval cs r mod q = 0) ->
  Forall (fun c => c mod q = 0) cs.
Proof.
  intros Hq. induction roots as [|r rs IH]; intros cs Hlen Hnd Hz.
  - destruct cs as [|c cs']; [constructor|cbn [length] in Hlen; lia].
  - cbn [map] in Hnd. apply NoDup_cons_iff in Hnd. destruct Hnd as [Hnotin Hnd'].
    cbn [length] in Hlen.
    apply (pquot_coeffs q cs r); [apply Hz; left; reflexivity|].
    apply IH; [rewrite pquot_length; lia|exact Hnd'|].
    intros r' Hr'. apply (pquot_root q cs r r' Hq); [apply Hz; left; reflexivity|apply Hz; right; exact Hr'|].
    intros Heq. apply Hnotin. rewrite <- Heq. apply (in_map (fun r => r mod q)). exact Hr'.
Qed.

Theorem root_bound : forall q : Z, prime q -> forall (n : nat) (cs roots : list Z),
  (length cs <= n)%nat -> length roots = n ->
  NoDup (map (fun r => r mod q) roots) ->
  (forall r, In r roots -> peval cs r mod q = 0) ->
  forall x, peval cs x mod q = 0.
Proof.
  intros q Hq n cs roots Hlen <- Hnd Hz x.
  apply peval_coeffs_zero, (more_roots_than_coeffs q Hq roots); assumption.
Qed.

Print Assumptions root_bound.

Theorem root_bound_coeffs : forall q, prime q -> forall cs roots,
  (length cs <= length roots)%nat ->
  NoDup (map (fun r => r mod q) roots) ->
  (forall r, In r roots -> peval cs r mod q = 0) ->
  (length roots <= Z.to_nat q)%nat ->
  Forall (fun c => c mod q = 0) cs.
Proof.
  intros q Hq cs roots Hlen Hnd Hz _. exact (more_roots_than_coeffs q Hq roots cs Hlen Hnd Hz).
Qed.

Print Assumptions root_bound_coeffs.

Fixpoint padd (a b : list Z) : list Z :=
  match a, b with
  | [], _ => b
  | _, [] => a
  | x :: a', y :: b' => (x + y) :: padd a' b'
  end.

Lemma peval_padd (a b : list Z) (x : Z) : peval (padd a b) x = peval a x + peval b x.
Proof.
  revert b. induction a as [|c a' IH]; intros b.
  - reflexivity.
  - destruct b as [|d b'].
    + cbn [padd]. rewrite peval_nil. lia.
    + cbn [padd]. rewrite (peval_cons (c + d)), (peval_cons c), (peval_cons d), IH. ring.
Qed.

Lemma padd_length (a b : list Z) : length (padd a b) = Nat.max (length a) (length b).
Proof.
  revert b. induction a as [|c a' IH]; intros b.
  - reflexivity.
  - destruct b as [|d b'].
    + reflexivity.
    + cbn [padd length]. rewrite IH. reflexivity.
Qed.

Definition pscale (k : Z) (a : list Z) : list Z := map (Z.mul k) a.

Lemma peval_pscale (k : Z) (a : list Z) (x : Z) : peval (pscale k a) x = k * peval a x.
Proof.
  unfold pscale. induction a as [|c a' IH]; cbn [map].
  - rewrite peval_nil. ring.
  - rewrite (peval_cons (k * c)), (peval_cons c), IH. ring.
Qed.

Lemma pscale_length (k : Z) (a : list Z) : length (pscale k a) = length a.
Proof. apply map_length. Qed.

Definition plin_mul (j : Z) (a : list Z) : list Z := padd (pscale j a) (0 :: pscale (-1) a).

Lemma peval_plin_mul (j : Z) (a : list Z) (x : Z) :
  peval (plin_mul j a) x = (j - x) * peval a x.
Proof. unfold plin_mul. rewrite peval_padd, peval_cons, !peval_pscale. ring. Qed.

Lemma plin_mul_length (j : Z) (a : list Z) : length (plin_mul j a) = S (length a).
Proof. unfold plin_mul. rewrite padd_length. cbn [length]. rewrite !pscale_length. lia. Qed.

Definition plinprod (js : list Z) : list Z := fold_right plin_mul [1] js.

Lemma plinprod_cons (j : Z) (js : list Z) : plinprod (j :: js) = plin_mul j (plinprod js).
Proof. reflexivity. Qed.

Lemma peval_plinprod (js : list Z) (x : Z) :
  peval (plinprod js) x = zprod (map (fun j => j - x) js).
Proof.
  induction js as [|j js' IH].
  - change (1 + x * 0 = 1). ring.
  - rewrite plinprod_cons, peval_plin_mul, IH. reflexivity.
Qed.

Lemma plinprod_length (js : list Z) : length (plinprod js) = S (length js).
Proof.
  induction js as [|j js' IH]; [reflexivity|].
  rewrite plinprod_cons, plin_mul_length, IH. reflexivity.
Qed.

Definition psum (ps : list (list Z)) : list Z := fold_right padd [] ps.

Lemma psum_cons (p : list Z) (ps : list (list Z)) : psum (p :: ps) = padd p (psum ps).
Proof. reflexivity. Qed.

Lemma peval_psum_map (g : Z -> list Z) (l : list Z) (x : Z) :
  peval (psum (map g l)) x = zsum (map (fun i => peval (g i) x) l).
Proof.
  induction l as [|a l' IH]; [reflexivity|].
  cbn [map]. rewrite psum_cons, peval_padd, zsum_cons, IH. reflexivity.
Qed.

Lemma psum_map_length_le (g : Z -> list Z) (l : list Z) (n : nat) :
  (forall i, In i l -> (length (g i) <= n)%nat) -> (length (psum (map g l)) <= n)%nat.
Proof.
  induction l as [|a l' IH]; intros Hall.
  - cbn. lia.
  - cbn [map]. rewrite psum_cons, padd_length.
    pose proof (Hall a (or_introl eq_refl)) as Ha.
    assert (Hrest : (length (psum (map g l')) <= n)%nat).
    { apply IH. intros i Hi. apply Hall. right. exact Hi. }
    lia.
Qed.

Definition lagrange_poly (xs : list Z) (c : Z -> Z) : list Z :=
  psum (map (fun i => pscale (c i) (plinprod (others i xs))) xs).

Lemma lagrange_poly_length (xs : list Z) (c : Z -> Z) :
  (length (lagrange_poly xs c) <= length xs)%nat.
Proof.
  apply psum_map_length_le. intros i Hi.
  rewrite pscale_length, plinprod_length. apply others_length. exact Hi.
Qed.

Lemma peval_lagrange_poly (xs : list Z) (c : Z -> Z) (x : Z) :
  peval (lagrange_poly xs c) x
  = zsum (map (fun i => c i * zprod (map (fun j => j - x) (others i xs))) xs).
Proof.
  unfold lagrange_poly. rewrite peval_psum_map. f_equal. apply map_ext. intros i.
  rewrite peval_pscale, peval_plinprod. reflexivity.
Qed.

Lemma peval_lagrange_poly_at (xs : list Z) (c : Z -> Z) (k : Z) : NoDup xs -> In k xs ->
  peval (lagrange_poly xs c) k = c k * zprod (map (fun j => j - k) (others k xs)).
Proof.
  intros Hnd Hk. rewrite peval_lagrange_poly.
  rewrite (zsum_map_single _ k xs Hnd Hk); [reflexivity|].
  intros i Hi Hne. rewrite zprod_In_zero; [ring|].
  apply in_map_iff. exists k. split; [ring|]. apply others_In. split; [exact Hk|].
  intros ->. apply Hne. reflexivity.
Qed.

(* Lagrange interpolation at zero, stated for ANY coefficients lam that satisfy the defining
   congruence  lam_i * prod_{j<>i} (j - i) == prod_{j<>i} j  (mod q)  -- this is what the
   library's `lagrange` function computes as numerator * denominator^-1 *)
Theorem lagrange_at_zero : forall q : Z, prime q -> forall (xs : list Z) (lam : Z -> Z),
  NoDup (map (fun x => x mod q) xs) ->
  (forall i, In i xs ->
     (lam i * zprod (map (fun j => j - i) (others i xs))) mod q = zprod (others i xs) mod q) ->
  forall cs : list Z, (length cs <= length xs)%nat ->
  zsum (map (fun i => lam i * peval cs i) xs) mod q = nth 0 cs 0 mod q.
Proof.
  intros q Hq xs lam Hnd Hlam cs Hlen.
  pose (W := fun i : Z => zprod (map (fun j => j - i) (others i xs))).
  pose (mu := fun i : Z => minv q (W i)).
  assert (Hmu : forall i, In i xs -> eqm q (mu i * W i) 1).
  { intros i Hi. apply (minv_spec q _ Hq), (others_diffs_nonzero q i xs Hq).
    intros j Hj Hne E. exact (Hne (NoDup_map_inj _ xs Hnd j i Hj Hi E)). }
  (* S, the Lagrange form of cs minus cs itself, has the points of xs as roots, hence S(0) = 0 *)
  pose (S := padd (lagrange_poly xs (fun i => peval cs i * mu i)) (pscale (-1) cs)).
  assert (HSeval : forall x,
            peval S x = peval (lagrange_poly xs (fun i => peval cs i * mu i)) x - peval cs x).
  { intros x. unfold S. rewrite peval_padd, peval_pscale. ring. }
  assert (H0 : peval S 0 mod q = 0).
  { apply (root_bound q Hq (length xs) S xs); [|reflexivity|exact Hnd|].
    - unfold S. rewrite padd_length, pscale_length.
      apply Nat.max_lub; [apply lagrange_poly_length|exact Hlen].
    - intros k Hk. rewrite HSeval, peval_lagrange_poly_at by (try apply (NoDup_map_inv _ _ Hnd); exact Hk).
      rewrite <- Z.mul_assoc. apply eqm_sub_0.
      change (eqm q (peval cs k * (mu k * W k)) (peval cs k)).
      rewrite (Hmu k Hk), Z.mul_1_r. reflexivity. }
  rewrite HSeval, peval_lagrange_poly, peval_at_zero in H0. apply eqm_sub_0 in H0.
  rewrite <- H0. apply (zsum_map_eqm q). intros i Hi.
  rewrite (map_ext (fun j => j - 0) (fun j => j)), map_id by (intros j; apply Z.sub_0_r).
  rewrite <- Z.mul_assoc, (Z.mul_comm (lam i)).
  apply (eqm_mul_Proper q); [reflexivity|]. symmetry.
  exact (eqm_div_by_inv q (lam i) (mu i) (W i) _ (Hlam i Hi) (Hmu i Hi)).
Qed.

Print Assumptions lagrange_at_zero.

(* The hypotheses of [lagrange_at_zero] can be met: a concrete instance checked by computation.
   q = 11, xs = [1;2;4]:
   lam 1 = (2*4) * ((2-1)*(4-1))^-1 = 8 * 3^-1 = 8 * 4  = 32 = 10 (mod 11)
   lam 2 = (1*4) * ((1-2)*(4-2))^-1 = 4 * (-2)^-1 = 4 * 5 = 20 = 9 (mod 11)
   lam 4 = (1*2) * ((1-4)*(2-4))^-1 = 2 * 6^-1 = 2 * 2 = 4 (mod 11) *)
Definition lam_ex (i : Z) : Z :=
  match i with
  | 1 => 10
  | 2 => 9
  | 4 => 4
  | _ => 0
  end.

Example lam_ex_ok : forall i, In i [1; 2; 4] ->
  (lam_ex i * zprod (map (fun j => j - i) (others i [1; 2; 4]))) mod 11
  = zprod (others i [1; 2; 4]) mod 11.
Proof.
  intros i Hi. cbn [In] in Hi.
  destruct Hi as [Hi|[Hi|[Hi|Hi]]]; [subst i; vm_compute; reflexivity ..|destruct Hi].
Qed.

Example lagrange_ex :
  zsum (map (fun i => lam_ex i * peval [7; 3; 5] i) [1; 2; 4]) mod 11 = 7.
Proof. vm_compute; reflexivity. Qed.
