(* Base/Primes.v — primality by trial division, proved sound: up to n ([prime_check]) and up to the square root
   ([prime_check_sqrt], the one the small parameter sets and the certificate chains are certified with). *)
From Coq Require Import ZArith Znumtheory Lia Bool.
Open Scope Z_scope.

Fixpoint no_div (n : Z) (k : nat) (d : Z) : bool :=
  match k with
  | O => true
  | S k' => negb (n mod d =? 0) && no_div n k' (d + 1)
  end.

Definition prime_check (n : Z) : bool := (1 <? n) && no_div n (Z.to_nat (n - 2)) 2.

Lemma no_div_spec n k : forall d, 0 < d -> no_div n k d = true ->
  forall x, d <= x < d + Z.of_nat k -> ~ (x | n).
Proof.
  induction k as [|k IH]; intros d Hd H x Hx.
  - simpl in Hx. lia.
  - cbn [no_div] in H. apply andb_true_iff in H. destruct H as [H1 H2].
    destruct (Z.eq_dec x d) as [->|Hne].
    + intro Hdiv. apply Z.mod_divide in Hdiv; [|lia].
      rewrite Hdiv in H1. discriminate.
    + apply (IH (d + 1)); [lia|exact H2|]. rewrite Nat2Z.inj_succ in Hx. lia.
Qed.

Theorem prime_check_sound n : prime_check n = true -> prime n.
Proof.
  unfold prime_check. intro H. apply andb_true_iff in H. destruct H as [H1 H2].
  apply Z.ltb_lt in H1. apply prime_alt. split; [exact H1|].
  intros x Hx. apply (no_div_spec n _ 2 ltac:(lia) H2). rewrite Z2Nat.id by lia. lia.
Qed.

Lemma small_divisor n : 1 < n -> ~ prime n -> exists s, 1 < s /\ (s | n) /\ s * s <= n.
Proof.
  intros Hn Hnp. destruct (not_prime_divide n Hn Hnp) as (d & Hd & [e He]).
  destruct (Z_le_gt_dec d e); [exists d | exists e]; repeat split; try nia.
  - exists e. lia.
  - exists d. lia.
Qed.

Definition prime_check_sqrt (n : Z) : bool := (1 <? n) && no_div n (Z.to_nat (Z.sqrt n - 1)) 2.

Lemma prime_check_sqrt_sound n : prime_check_sqrt n = true -> prime n.
Proof.
  unfold prime_check_sqrt. rewrite andb_true_iff, Z.ltb_lt. intros [H1 H2].
  destruct (prime_dec n) as [|Hnp]; [assumption|exfalso].
  destruct (small_divisor n H1 Hnp) as (s & Hs1 & Hs2 & Hs3).
  apply Z.sqrt_le_square in Hs3; [|lia|lia].
  apply (no_div_spec n _ 2 ltac:(lia) H2 s); [|exact Hs2]. rewrite Z2Nat.id by lia. lia.
Qed.
