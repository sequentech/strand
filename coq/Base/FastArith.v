(* Base/FastArith.v — a second arithmetic kernel, backed by Bignums.BigZ (trees of primitive 63-bit
   integers), proven extensionally equal to the reference definitions of Base/ZUtil.v, so that `vm_compute`
   can run the model at 2048 bits, which is out of reach of binary Z. What is evaluated through this file:
   * through the kernel [K_fast]: the correspondence check, and the closed run of the generator derivation
     C17_p2048_empty_seed_32_distinct (Properties/C17.v);
   * through [fast_powm_ok]: d^((p-1)/2) = -1 in Proofs/RistrettoGroup.dF_nonsquare;
   * through [sq_powm_ok]: g^q = 1 in Proofs/ZInst.g2048_order (on which Proofs/PrimeCerts.p2048_prime_from_q
     rests as well);
   * through [sq_powm_spec]: the certificate chain behind ell_prime and fp_prime (Proofs/PrimeCerts.v).
   The theorems about the model are proved for every kernel; whatever is evaluated through this file rests on the
   Uint63 primitives besides. *)
From Coq Require Import ZArith Lia Bool.
From Bignums Require Import BigZ.
From Strand Require Import Base.ZUtil Base.InvM.
Open Scope Z_scope.

Definition bz (x : Z) : bigZ := BigZ.of_Z x.
Definition zb (x : bigZ) : Z := BigZ.to_Z x.

Lemma zb_bz x : zb (bz x) = x.
Proof. unfold zb, bz. apply BigZ.spec_of_Z. Qed.

Fixpoint bpow_pos (a : bigZ) (e : positive) (m : bigZ) : bigZ :=
  match e with
  | xH => BigZ.modulo a m
  | xO e' => let z := bpow_pos a e' m in BigZ.modulo (BigZ.mul z z) m
  | xI e' => let z := bpow_pos a e' m in
             BigZ.modulo (BigZ.mul (BigZ.modulo (BigZ.mul z z) m) a) m
  end.

Lemma bpow_pos_spec a e m : zb (bpow_pos a e m) = (zb a ^ Zpos e) mod (zb m).
Proof.
  unfold zb. apply (sqmul_pow _ _ (fun e => BigZ.to_Z (bpow_pos a e m))).
  - apply BigZ.spec_modulo.
  - intro e'. cbn [bpow_pos]. rewrite BigZ.spec_modulo, BigZ.spec_mul. reflexivity.
  - intro e'. cbn [bpow_pos]. rewrite BigZ.spec_modulo, BigZ.spec_mul, BigZ.spec_modulo, BigZ.spec_mul. reflexivity.
Qed.

Definition fast_powm (b e m : Z) : Z :=
  match e with
  | Zpos e' => if m =? 0 then powm b e m else zb (bpow_pos (bz b) e' (bz m))
  | _ => powm b e m
  end.

Lemma fast_powm_ok b e m : fast_powm b e m = powm b e m.
Proof.
  unfold fast_powm. destruct e as [|e'|e']; try reflexivity.
  destruct (m =? 0) eqn:Hm; [reflexivity|].
  apply Z.eqb_neq in Hm. rewrite bpow_pos_spec, !zb_bz. symmetry. apply powm_spec. exact Hm.
Qed.

(* The same power on BigN with [BigN.square], for the proofs that evaluate single large powers: at 2048 bits the
   checker spends its time in the squarings. *)
Fixpoint npow_pos (a : bigN) (e : positive) (m : bigN) : bigN :=
  match e with
  | xH => BigN.modulo a m
  | xO e' => let z := npow_pos a e' m in BigN.modulo (BigN.square z) m
  | xI e' => let z := npow_pos a e' m in
             BigN.modulo (BigN.mul (BigN.modulo (BigN.square z) m) a) m
  end.

Lemma npow_pos_spec a e m : BigN.to_Z (npow_pos a e m) = (BigN.to_Z a ^ Zpos e) mod (BigN.to_Z m).
Proof.
  apply (sqmul_pow _ _ (fun e => BigN.to_Z (npow_pos a e m))).
  - apply BigN.spec_modulo.
  - intro e'. cbn [npow_pos]. rewrite BigN.spec_modulo, BigN.spec_square. reflexivity.
  - intro e'. cbn [npow_pos]. rewrite BigN.spec_modulo, BigN.spec_mul, BigN.spec_modulo, BigN.spec_square. reflexivity.
Qed.

Definition sq_powm (b e m : Z) : Z :=
  match b, e, m with
  | Zpos b', Zpos e', Zpos m' => BigN.to_Z (npow_pos (BigN.of_pos b') e' (BigN.of_pos m'))
  | _, _, _ => powm b e m
  end.

Lemma sq_powm_ok b e m : sq_powm b e m = powm b e m.
Proof.
  destruct b as [|b'|b'], e as [|e'|e'], m as [|m'|m']; cbn [sq_powm]; try reflexivity.
  rewrite npow_pos_spec, !BigN.spec_of_pos. symmetry. apply powm_spec. discriminate.
Qed.

Lemma sq_powm_spec b e m : m <> 0 -> sq_powm b e m = b ^ e mod m.
Proof. intro Hm. rewrite sq_powm_ok. apply powm_spec. exact Hm. Qed.

Definition fast_mul (a b : Z) : Z := zb (BigZ.mul (bz a) (bz b)).
Lemma fast_mul_ok a b : fast_mul a b = a * b.
Proof. unfold fast_mul, zb, bz. now rewrite BigZ.spec_mul, !BigZ.spec_of_Z. Qed.

Definition fast_mod (a m : Z) : Z := zb (BigZ.modulo (bz a) (bz m)).
Lemma fast_mod_ok a m : fast_mod a m = a mod m.
Proof. unfold fast_mod, zb, bz. now rewrite BigZ.spec_modulo, !BigZ.spec_of_Z. Qed.

Definition fast_gcd (a b : Z) : Z := zb (BigZ.gcd (bz a) (bz b)).
Lemma fast_gcd_ok a b : fast_gcd a b = Z.gcd a b.
Proof. unfold fast_gcd, zb, bz. now rewrite BigZ.spec_gcd, !BigZ.spec_of_Z. Qed.

(* inverse: try the Fermat candidate a^(m-2) mod m, validate it, fall back to Euclid. By uniqueness of
   the inverse in [0,m) this is always what Euclid returns. *)
Definition fast_invm (a m : Z) : option Z :=
  let r := fast_powm a (m - 2) m in
  if (1 <? m) && (0 <=? r) && (r <? m) && (fast_mod (fast_mul a r) m =? 1) then Some r else invm a m.

Lemma fast_invm_ok a m : fast_invm a m = invm a m.
Proof.
  unfold fast_invm.
  destruct ((1 <? m) && (0 <=? fast_powm a (m - 2) m) && (fast_powm a (m - 2) m <? m)
            && (fast_mod (fast_mul a (fast_powm a (m - 2) m)) m =? 1)) eqn:H; [|reflexivity].
  rewrite !andb_true_iff in H. destruct H as [[[H1 H2] H3] H4].
  rewrite fast_mod_ok, fast_mul_ok in H4.
  symmetry. apply invm_unique; lia.
Qed.

Definition K_fast : Kernel := {|
  k_powm := fast_powm; k_mul := fast_mul; k_mod := fast_mod; k_invm := fast_invm;
  k_powm_ok := fast_powm_ok; k_mul_ok := fast_mul_ok; k_mod_ok := fast_mod_ok; k_invm_ok := fast_invm_ok |}.
