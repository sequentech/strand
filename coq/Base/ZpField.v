(* Base/ZpField.v — the prime field Z/pZ as a type with Leibniz equality, so that Coq's [ring] and [field]
   tactics apply: carrier = integers that are their own residue (the side condition is a boolean equation, so
   two elements with the same value are equal without any axiom), inverse = a^(p-2) (Fermat, Base/Fermat.v).
   [of_Z] is the reduction homomorphism Z -> Z/pZ through which the executable model's field operations
   (written over plain Z with explicit [mod]) are related to the abstract field. *)
From Coq Require Import ZArith Znumtheory Zpow_facts Lia Bool Eqdep_dec Field.
From Strand Require Import Base.Fermat.
Open Scope Z_scope.

Section Zp.
  Variable p : Z.
  Hypothesis p_prime : prime p.

  Let p_ge2 : 2 <= p.  Proof. pose proof (prime_ge_2 _ p_prime). lia. Qed.

  Record Zp : Type := mkZp { zv : Z; zv_ok : (zv mod p =? zv) = true }.

  Lemma Zp_eq (a b : Zp) : zv a = zv b -> a = b.
  Proof.
    destruct a as [a Ha], b as [b Hb]. cbn. intro E. subst b.
    f_equal. apply UIP_dec. apply bool_dec.
  Qed.

  Lemma zv_eq_iff (a b : Zp) : zv a = zv b <-> a = b.
  Proof. split; [apply Zp_eq | now intros ->]. Qed.

  Lemma zv_range (a : Zp) : 0 <= zv a < p.
  Proof. destruct a as [a Ha]. cbn. apply Z.eqb_eq in Ha. rewrite <- Ha. apply Z.mod_pos_bound. lia. Qed.

  Lemma zv_mod (a : Zp) : zv a mod p = zv a.
  Proof. apply Z.mod_small, zv_range. Qed.

  Lemma red_ok (a : Z) : ((a mod p) mod p =? a mod p) = true.
  Proof. apply Z.eqb_eq, Zmod_mod. Qed.

  Definition of_Z (a : Z) : Zp := mkZp (a mod p) (red_ok a).

  Lemma zv_of_Z a : zv (of_Z a) = a mod p.  Proof. reflexivity. Qed.
  Lemma of_Z_zv a : of_Z (zv a) = a.  Proof. apply Zp_eq. cbn. apply zv_mod. Qed.
  Lemma of_Z_mod a : of_Z (a mod p) = of_Z a.  Proof. apply Zp_eq. cbn. apply Z.mod_mod. lia. Qed.
  Lemma of_Z_eq a b : of_Z a = of_Z b <-> a mod p = b mod p.
  Proof. split; intro H; [exact (f_equal zv H) | apply Zp_eq; exact H]. Qed.

  Definition z0 : Zp := of_Z 0.
  Definition z1 : Zp := of_Z 1.
  Definition zadd (a b : Zp) : Zp := of_Z (zv a + zv b).
  Definition zmul (a b : Zp) : Zp := of_Z (zv a * zv b).
  Definition zsub (a b : Zp) : Zp := of_Z (zv a - zv b).
  Definition zopp (a : Zp) : Zp := of_Z (- zv a).
  (* the inverse is sealed behind an opaque proof so that no conversion test ever tries to evaluate
     a^(p-2) by unfolding Z.pow (2^255 iterations); its defining equation is [zinv_eq] *)
  Lemma zinv_sig : { f : Zp -> Zp | forall a, f a = of_Z (zv a ^ (p - 2)) }.
  Proof. exists (fun a => of_Z (zv a ^ (p - 2))). reflexivity. Qed.
  Definition zinv : Zp -> Zp := proj1_sig zinv_sig.
  Definition zdiv (a b : Zp) : Zp := zmul a (zinv b).

  Lemma of_Z_add a b : of_Z (a + b) = zadd (of_Z a) (of_Z b).
  Proof. apply Zp_eq. cbn. apply Zplus_mod. Qed.
  Lemma of_Z_mul a b : of_Z (a * b) = zmul (of_Z a) (of_Z b).
  Proof. apply Zp_eq. cbn. apply Zmult_mod. Qed.
  Lemma of_Z_sub a b : of_Z (a - b) = zsub (of_Z a) (of_Z b).
  Proof. apply Zp_eq. cbn. apply Zminus_mod. Qed.
  Lemma of_Z_opp a : of_Z (- a) = zopp (of_Z a).
  Proof.
    apply Zp_eq. cbn. replace (- a) with (0 - a) by ring. replace (- (a mod p)) with (0 - a mod p) by ring.
    rewrite Zminus_mod. rewrite (Zminus_mod 0 (a mod p)). rewrite Z.mod_mod by lia. reflexivity.
  Qed.

  Lemma zv_z0 : zv z0 = 0.  Proof. unfold z0, of_Z; cbn [zv]. apply Z.mod_0_l. lia. Qed.
  Lemma zv_z1 : zv z1 = 1.  Proof. apply Z.mod_small. lia. Qed.

  Ltac zp := intros; apply Zp_eq; cbn -[Z.mul Z.add Z.sub Z.opp];
    rewrite ?Zplus_mod_idemp_l, ?Zplus_mod_idemp_r, ?Zmult_mod_idemp_l, ?Zmult_mod_idemp_r,
            ?Zminus_mod_idemp_l, ?Zminus_mod_idemp_r.

  Lemma Zp_ring : ring_theory z0 z1 zadd zmul zsub zopp (@eq Zp).
  Proof.
    constructor.
    - zp. rewrite Z.add_0_l. apply zv_mod.
    - zp. f_equal. ring.
    - zp. f_equal. ring.
    - zp. rewrite Z.mul_1_l. apply zv_mod.
    - zp. f_equal. ring.
    - zp. f_equal. ring.
    - zp. f_equal. ring.
    - zp. reflexivity.
    - zp. replace (zv x + - zv x) with 0 by ring. reflexivity.
  Qed.

  Lemma z1_neq_z0 : z1 <> z0.
  Proof. intro H. apply (f_equal zv) in H. rewrite zv_z0, zv_z1 in H. discriminate. Qed.

  (* powers with integer exponents: the form in which [zinv] and the model's modular exponentiations are read *)
  Definition zpow (a : Zp) (k : Z) : Zp := of_Z (zv a ^ k).

  Lemma zinv_eq a : zinv a = zpow a (p - 2).  Proof. exact (proj2_sig zinv_sig a). Qed.

  Lemma of_Z_pow a k : of_Z (a ^ k) = zpow (of_Z a) k.
  Proof. apply Zp_eq. unfold zpow. rewrite !zv_of_Z. apply Zpower_mod. lia. Qed.

  Lemma zpow_1 a : zpow a 1 = a.
  Proof. unfold zpow. rewrite Z.pow_1_r. apply of_Z_zv. Qed.

  Lemma zpow_2 a : zpow a 2 = zmul a a.
  Proof. unfold zpow. rewrite Z.pow_2_r. reflexivity. Qed.

  Lemma zpow_add a j k : 0 <= j -> 0 <= k -> zpow a (j + k) = zmul (zpow a j) (zpow a k).
  Proof. intros Hj Hk. unfold zpow. rewrite Z.pow_add_r by assumption. apply of_Z_mul. Qed.

  Lemma zpow_mul a j k : 0 <= j -> 0 <= k -> zpow (zpow a j) k = zpow a (j * k).
  Proof. intros Hj Hk. unfold zpow at 2. rewrite <- of_Z_pow. unfold zpow. now rewrite Z.pow_mul_r. Qed.

  Lemma zv_ndiv a : a <> z0 -> ~ (p | zv a).
  Proof. intros Ha Hd. apply Ha. apply Zp_eq. rewrite zv_z0, <- (zv_mod a). apply Zdivide_mod. exact Hd. Qed.

  Lemma zpow_fermat a : a <> z0 -> zpow a (p - 1) = z1.
  Proof.
    intro Ha. apply Zp_eq. unfold zpow. rewrite zv_of_Z, zv_z1. apply fermat_Z; [exact p_prime | now apply zv_ndiv].
  Qed.

  Lemma zpow_euler a h : p = 2 * h + 1 -> a <> z0 -> zpow a h = z1 \/ zpow a h = zopp z1.
  Proof.
    intros Hp Ha.
    destruct (euler_pm1 p h (zv a) p_prime Hp (zv_ndiv a Ha)) as [E|E]; [left|right]; apply Zp_eq; unfold zpow; rewrite zv_of_Z, E.
    - symmetry. apply zv_z1.
    - unfold zopp. rewrite zv_of_Z, zv_z1. apply Z.mod_unique with (q := -1); lia.
  Qed.

  Lemma zinv_l (a : Zp) : a <> z0 -> zmul (zinv a) a = z1.
  Proof.
    intro Ha. rewrite <- (zpow_fermat a Ha). replace (p - 1) with (p - 2 + 1) by ring.
    rewrite zpow_add, zpow_1 by lia. now rewrite zinv_eq.
  Qed.

  Lemma Zp_field : field_theory z0 z1 zadd zmul zsub zopp zdiv zinv (@eq Zp).
  Proof.
    constructor.
    - exact Zp_ring.
    - exact z1_neq_z0.
    - reflexivity.
    - exact zinv_l.
  Qed.

  Lemma Zp_eq_dec (a b : Zp) : {a = b} + {a <> b}.
  Proof.
    destruct (Z.eq_dec (zv a) (zv b)) as [E|E]; [left; apply Zp_eq, E | right; intro H; apply E; now rewrite H].
  Qed.

  Lemma zmul_eq0 a b : zmul a b = z0 -> a = z0 \/ b = z0.
  Proof.
    intro H. destruct (Zp_eq_dec a z0) as [E|E]; [left; exact E|right].
    assert (zmul (zinv a) (zmul a b) = z0) as H2.
    { rewrite H. apply Zp_eq. unfold zmul. rewrite zv_of_Z, zv_z0, Z.mul_0_r. apply Z.mod_0_l; lia. }
    pose proof (Rmul_assoc Zp_ring (zinv a) a b) as A. rewrite A in H2. rewrite (zinv_l a E) in H2.
    rewrite (Rmul_1_l Zp_ring) in H2. exact H2.
  Qed.

  Lemma nonsquare_by_euler (d h : Z) :
    p = 2 * h + 1 -> 0 <= h -> d mod p <> 0 -> d ^ h mod p <> 1 -> forall x : Zp, zmul x x <> of_Z d.
  Proof.
    intros Hp Hh Hd He x Hx. apply (f_equal zv) in Hx. cbn in Hx.
    apply He. rewrite Zpower_mod by lia. rewrite <- Hx. rewrite <- Zpower_mod by lia.
    rewrite <- Z.pow_2_r, <- Z.pow_mul_r by lia. replace (2 * h) with (p - 1) by lia.
    apply fermat_Z; [exact p_prime|]. intro Hdiv.
    apply Hd. rewrite <- Hx. apply Zdivide_mod. apply Z.divide_mul_l. exact Hdiv.
  Qed.
End Zp.
