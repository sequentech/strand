(* Base/ZUtil.v — the reference modular arithmetic of the model ([powm], [invm]) and the record [Kernel] of
   implementations proven equal to it, through which the model calls them; [sqmul_pow] is the induction by which a
   square-and-multiply evaluator is shown to be such an implementation. *)
From Coq Require Import ZArith Zpow_facts Lia.
Open Scope Z_scope.

Definition powm (b e m : Z) : Z := Zpow_mod b e m.

Lemma powm_spec b e m : m <> 0 -> powm b e m = b ^ e mod m.
Proof. intro Hm. unfold powm. apply Zpow_mod_correct; exact Hm. Qed.

(* a function of the exponent that obeys the square-and-multiply recurrences is the modular power: the one induction
   behind every fast evaluator of [powm] *)
Lemma sqmul_pow b m (f : positive -> Z) :
  f xH = b mod m ->
  (forall e, f (xO e) = f e * f e mod m) ->
  (forall e, f (xI e) = (f e * f e mod m) * b mod m) ->
  forall e, f e = b ^ Zpos e mod m.
Proof.
  intros H1 HO HI. induction e as [e IH | e IH | ].
  - rewrite HI, IH, <- Zmult_mod, <- Z.pow_add_r, Zmult_mod_idemp_l, Z.mul_comm, <- Z.pow_succ_r by lia.
    rewrite Pos2Z.inj_xI, Z.add_diag. reflexivity.
  - rewrite HO, IH, <- Zmult_mod, <- Z.pow_add_r, Z.add_diag by lia. rewrite Pos2Z.inj_xO. reflexivity.
  - rewrite H1, Z.pow_1_r. reflexivity.
Qed.

Definition mulm (a b m : Z) : Z := (a * b) mod m.

(* extended Euclid on (r0, r1) carrying the Bezout coefficient of [a]:
   invariant  s_i * a ≡ r_i (mod m). Fuel = 2 log2_up m + 2 suffices: every step more than
   halves the product of the two remainders (Base/InvM.v). *)
Fixpoint egcd_fuel (fuel : nat) (r0 r1 s0 s1 : Z) : Z * Z :=
  match fuel with
  | O => (r0, s0)
  | S f => if r1 =? 0 then (r0, s0)
           else let qt := r0 / r1 in egcd_fuel f r1 (r0 - qt * r1) s1 (s0 - qt * s1)
  end.

Definition egcd_steps (m : Z) : nat := S (S (2 * Z.to_nat (Z.log2_up m))).

(* modular inverse as num-modular / malachite compute it: None when gcd(a, m) <> 1 *)
Definition invm (a m : Z) : option Z :=
  let '(g, s) := egcd_fuel (egcd_steps m) m (a mod m) 0 1 in
  if g =? 1 then Some (s mod m) else None.

(* Arithmetic kernel: the heavy operations the model calls, bundled with proofs that they ARE the
   reference definitions above. Theorems are proved for every kernel. There are three: [K_ref] below (plain Z) and
   the BigZ-backed [K_fast] of Base/FastArith.v, with which the correspondence check runs the model ([K_fast] for the
   large moduli, the shipped 2048-bit group among them, and for ristretto255), and Model/RistrettoFast.K_25519 (plain
   integers, reduction modulo 2^255 - 19 by folding) for the one closed evaluation that must not rest on the
   primitive-integer axioms. *)
Record Kernel : Type := {
  k_powm : Z -> Z -> Z -> Z;
  k_mul : Z -> Z -> Z;
  k_mod : Z -> Z -> Z;
  k_invm : Z -> Z -> option Z;
  k_powm_ok : forall b e m, k_powm b e m = powm b e m;
  k_mul_ok : forall a b, k_mul a b = a * b;
  k_mod_ok : forall a m, k_mod a m = a mod m;
  k_invm_ok : forall a m, k_invm a m = invm a m
}.

Definition K_ref : Kernel := {|
  k_powm := powm; k_mul := Z.mul; k_mod := Z.modulo; k_invm := invm;
  k_powm_ok := fun _ _ _ => eq_refl; k_mul_ok := fun _ _ => eq_refl;
  k_mod_ok := fun _ _ => eq_refl; k_invm_ok := fun _ _ => eq_refl |}.
