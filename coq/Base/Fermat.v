(** * Strand.Base.Fermat

    Fermat's little theorem over [Z] (with [Znumtheory.prime]).  [fermat_Z] is what
    the inverse and the non-residue test of the field Z/p (Base/ZpField.v), Pocklington's
    criterion (Base/Pocklington.v), the square roots of Proofs/SqrtRatio.v and the
    inverse of a scalar modulo the group order (Proofs/EdwardsBackend.v) rest on; the
    corollaries after it are those of the order-q subgroup of a safe-prime group
    p = 2q+1: its members are the nonzero squares, and of a, p - a exactly one is a member.

    Fermat's little theorem itself is imported from Mathematical Components
    ([binomial.fermat_little], over [nat]) and transported to [Z] in the
    module [FermatBridge].  Everything after that module is plain Ltac over
    ZArith; ssreflect is never imported at top level. *)

From Coq Require Import ZArith Znumtheory Zpow_facts Lia.
From mathcomp Require ssreflect ssrbool eqtype ssrnat div prime binomial.

Module FermatBridge.
Set Warnings "-notation-overridden".
Import ssreflect ssrbool eqtype ssrnat div prime binomial.
Set Warnings "notation-overridden".

Local Open Scope nat_scope.

Lemma prime_Z_nat (p : Z) : Znumtheory.prime p -> prime (Z.to_nat p).
Proof.
move=> Hp; have H2 := prime_ge_2 _ Hp; apply/primeP; split.
- by apply/ltP; lia.
- move=> d /dvdnP [k Hk].
  have Hd : (Z.of_nat d | p)%Z.
    exists (Z.of_nat k); rewrite -Nat2Z.inj_mul -(Z2Nat.id p); last lia.
    by rewrite Hk.
  have Hdn : (0 <= Z.of_nat d)%Z by apply: Nat2Z.is_nonneg.
  case: (prime_divisors _ Hp _ Hd) => [E|[E|[E|E]]]; try lia.
  + by apply/orP; left; apply/eqP; apply: Nat2Z.inj.
  + by apply/orP; right; apply/eqP; rewrite -E Nat2Z.id.
Qed.

Lemma of_nat_expn (n m : nat) : Z.of_nat (n ^ m) = (Z.of_nat n ^ Z.of_nat m)%Z.
Proof.
elim: m => [|m IH]; first by [].
by rewrite expnS Nat2Z.inj_mul IH Nat2Z.inj_succ Z.pow_succ_r; last lia.
Qed.

Lemma of_nat_modn (n m : nat) :
  0 < m -> Z.of_nat (n %% m) = (Z.of_nat n mod Z.of_nat m)%Z.
Proof.
move=> Hm; apply: (Z.mod_unique_pos _ _ (Z.of_nat (n %/ m))).
- split; first by apply: Nat2Z.is_nonneg.
  by apply: inj_lt; apply/ltP; apply: ltn_pmod.
- rewrite -Nat2Z.inj_mul -Nat2Z.inj_add; congr Z.of_nat.
  by rewrite {1}(divn_eq n m) mulnC.
Qed.

Lemma fermat_nonneg (p a : Z) :
  Znumtheory.prime p -> (0 <= a)%Z -> (a ^ p mod p = a mod p)%Z.
Proof.
move=> Hp Ha; have H2 := prime_ge_2 _ Hp.
have Hpr := prime_Z_nat p Hp.
have E := fermat_little (Z.to_nat a) Hpr.
have Hpos : 0 < Z.to_nat p by apply: prime_gt0.
have := f_equal Z.of_nat E.
by rewrite !(of_nat_modn _ _ Hpos) of_nat_expn !Z2Nat.id; try lia.
Qed.

End FermatBridge.

Open Scope Z_scope.

Lemma not_divide_small : forall p a : Z, 0 < a < p -> ~ (p | a).
Proof.
  intros p a Ha Hd. apply Z.divide_pos_le in Hd; lia.
Qed.

Lemma fermat_pow_p : forall p a : Z, prime p -> a ^ p mod p = a mod p.
Proof.
  intros p a Hp. pose proof (prime_ge_2 _ Hp) as H2.
  rewrite Zpower_mod by lia.
  rewrite FermatBridge.fermat_nonneg.
  - apply Zmod_mod.
  - exact Hp.
  - apply Z.mod_pos_bound. lia.
Qed.

Theorem fermat_Z : forall p a : Z, prime p -> ~ (p | a) -> a ^ (p - 1) mod p = 1.
Proof.
  intros p a Hp Hna. pose proof (prime_ge_2 _ Hp) as H2.
  assert (Hd : (p | a ^ p - a)).
  { apply Z.mod_divide; [lia|]. rewrite Zminus_mod, fermat_pow_p, Z.sub_diag by exact Hp. apply Zmod_0_l. }
  replace (a ^ p - a) with (a * (a ^ (p - 1) - 1)) in Hd.
  2:{ replace p with (Z.succ (p - 1)) at 2 by lia.
      rewrite Z.pow_succ_r by lia. ring. }
  destruct (prime_mult _ Hp _ _ Hd) as [H|H]; [contradiction|].
  apply Zdivide_mod_minus; [lia|exact H].
Qed.
Print Assumptions fermat_Z.

Theorem sqrt1_Z : forall p x : Z, prime p -> (x * x) mod p = 1 -> x mod p = 1 \/ x mod p = p - 1.
Proof.
  intros p x Hp Hx. pose proof (prime_ge_2 _ Hp) as H2.
  pose proof (Zmod_divide_minus (x * x) p 1 ltac:(lia) Hx) as Hd.
  replace (x * x - 1) with ((x - 1) * (x + 1)) in Hd by ring.
  destruct (prime_mult _ Hp _ _ Hd) as [H|H]; [left|right]; (apply Zdivide_mod_minus; [lia|]).
  - exact H.
  - replace (x - (p - 1)) with (x + 1 - p) by ring. apply Z.divide_sub_r; [exact H|apply Z.divide_refl].
Qed.
Print Assumptions sqrt1_Z.

Theorem euler_pm1 : forall p q a : Z, prime p -> p = 2 * q + 1 -> ~ (p | a) ->
  a ^ q mod p = 1 \/ a ^ q mod p = p - 1.
Proof.
  intros p q a Hp Hpq Hna. pose proof (prime_ge_2 _ Hp) as H2.
  assert (Hq : 0 <= q) by lia.
  apply sqrt1_Z; [exact Hp|].
  rewrite <- Z.pow_add_r by lia.
  replace (q + q) with (p - 1) by lia.
  apply fermat_Z; assumption.
Qed.
Print Assumptions euler_pm1.

Theorem neg_pow_odd : forall p q a : Z, 0 < p -> Z.odd q = true ->
  ((p - a) ^ q) mod p = (p - (a ^ q mod p)) mod p.
Proof.
  intros p q a Hp Hodd.
  (* both sides are - a ^ q modulo p *)
  rewrite Zminus_mod_idemp_r, Zpower_mod by lia.
  replace (p - a) with (- a + 1 * p) by ring. replace (p - a ^ q) with (- a ^ q + 1 * p) by ring.
  rewrite !Z_mod_plus_full, <- Zpower_mod by lia.
  rewrite Z.pow_opp_odd by (apply Z.odd_spec; exact Hodd). reflexivity.
Qed.
Print Assumptions neg_pow_odd.

(* the form the plaintext encoder uses *)
Theorem exactly_one_member : forall p q a : Z, prime p -> p = 2 * q + 1 -> Z.odd q = true -> 0 < q -> 2 < p ->
  0 < a < p ->
  (a ^ q mod p = 1 /\ (p - a) ^ q mod p = p - 1) \/ (a ^ q mod p = p - 1 /\ (p - a) ^ q mod p = 1).
Proof.
  intros p q a Hp Hpq Hodd Hq H2 Ha.
  pose proof (neg_pow_odd p q a ltac:(lia) Hodd) as Hneg.
  destruct (euler_pm1 p q a Hp Hpq (not_divide_small p a Ha)) as [H|H].
  - left. split; [exact H|].
    rewrite Hneg, H. apply Z.mod_small. lia.
  - right. split; [exact H|].
    rewrite Hneg, H. replace (p - (p - 1)) with 1 by ring. apply Z.mod_small. lia.
Qed.
Print Assumptions exactly_one_member.

Theorem square_member : forall p q e : Z, prime p -> p = 2 * q + 1 -> ~ (p | e) ->
  ((e ^ 2) mod p) ^ q mod p = 1.
Proof.
  intros p q e Hp Hpq Hne. pose proof (prime_ge_2 _ Hp) as H2.
  rewrite <- Zpower_mod by lia.
  rewrite <- Z.pow_mul_r by lia.
  replace (2 * q) with (p - 1) by lia.
  apply fermat_Z; assumption.
Qed.
Print Assumptions square_member.

Theorem inv_mod_prime : forall q d : Z, prime q -> ~ (q | d) -> exists e, 0 <= e < q /\ (d * e) mod q = 1.
Proof.
  intros q d Hq Hnd. pose proof (prime_ge_2 _ Hq) as H2.
  pose proof (prime_rel_prime _ Hq _ Hnd) as Hrel.
  destruct (rel_prime_bezout _ _ Hrel) as [u v Huv].
  exists (v mod q). split.
  - apply Z.mod_pos_bound. lia.
  - rewrite Zmult_mod_idemp_r. apply Zdivide_mod_minus; [lia|]. exists (- u). lia.
Qed.
Print Assumptions inv_mod_prime.

Theorem member_is_square : forall p q a : Z, 1 < p -> Z.odd q = true -> 0 < q -> 0 <= a < p ->
  a ^ q mod p = 1 -> let e := a ^ ((q + 1) / 2) mod p in 0 <= e < p /\ (e ^ 2) mod p = a.
Proof.
  intros p q a Hp Hodd Hq Ha H e. split; [apply Z.mod_pos_bound; lia|].
  subst e. rewrite <- Zpower_mod by lia. rewrite <- Z.pow_mul_r by (try lia; apply Z.div_pos; lia).
  assert (E : (q + 1) / 2 * 2 = q + 1).
  { rewrite Z.odd_spec in Hodd. destruct Hodd as [k Hk]. subst q.
    replace (2 * k + 1 + 1) with ((k + 1) * 2) by ring. rewrite Z.div_mul by lia. reflexivity. }
  rewrite E. rewrite Z.pow_add_r by lia. rewrite Z.pow_1_r.
  rewrite <- Z.mul_mod_idemp_l by lia. rewrite H. rewrite Z.mul_1_l. apply Z.mod_small. exact Ha.
Qed.
Print Assumptions member_is_square.

Theorem member_iff_qr : forall p q a : Z, prime p -> p = 2 * q + 1 -> Z.odd q = true -> 0 < q -> 1 <= a < p ->
  (a ^ q mod p = 1 <-> exists e, 0 < e < p /\ (e ^ 2) mod p = a).
Proof.
  intros p q a Hp Hpq Hodd Hq Ha. pose proof (prime_ge_2 _ Hp) as H2. split.
  - intro H. destruct (member_is_square p q a ltac:(lia) Hodd Hq ltac:(lia) H) as [He1 He2].
    exists (a ^ ((q + 1) / 2) mod p). split; [|exact He2].
    destruct (Z.eq_dec (a ^ ((q + 1) / 2) mod p) 0) as [E|]; [|lia].
    rewrite E in He2. rewrite Z.pow_0_l, Z.mod_0_l in He2 by lia. lia.
  - intros (e & He & Hsq). rewrite <- Hsq. apply square_member; auto. apply not_divide_small. exact He.
Qed.
Print Assumptions member_iff_qr.

Example ex23 : 2 ^ 11 mod 23 = 1.
Proof. vm_compute. reflexivity. Qed.

Example ex23_neg : (23 - 2) ^ 11 mod 23 = 23 - 1.
Proof. vm_compute. reflexivity. Qed.
