(* Base/Pocklington.v — Pocklington's primality criterion, proved from Fermat's little theorem, with a boolean
   certificate checker. Used to (a) certify the 62-bit execution parameter set (q from the factorisation of q-1,
   p = 2q+1 from q), (b) derive [prime p2048] from [prime q2048], the one named primality hypothesis about the
   shipped group, and (c) certify the ristretto255 group order and 2^255 - 19 by certificate chains (all three in
   Proofs/PrimeCerts.v).

   Criterion (squarefree form): N > 1, F | N-1, N < F*F, F = r_1 * ... * r_k with distinct primes r_i, and for each
   r_i a witness a_i with a_i^(N-1) = 1 (mod N) and gcd(a_i^((N-1)/r_i) - 1, N) = 1. Then N is prime. *)
From Coq Require Import ZArith Znumtheory Zpow_facts List Lia Bool.
From Strand Require Import Base.Fermat Base.Primes.
Import ListNotations.
Open Scope Z_scope.

Lemma pow_one_multiple P a g k : 1 < P -> 0 <= g -> 0 <= k -> a ^ g mod P = 1 -> a ^ (g * k) mod P = 1.
Proof.
  intros HP Hg Hk A. rewrite Z.pow_mul_r by lia.
  rewrite Zpower_mod by lia. rewrite A. rewrite Z.pow_1_l by lia. apply Z.mod_small. lia.
Qed.

(* Euclid's algorithm on the exponents: with m = n (m / n) + m mod n also a^(m mod n) = 1 *)
Lemma pow_one_gcd P a m n : 1 < P -> 0 <= m -> 0 <= n ->
  a ^ m mod P = 1 -> a ^ n mod P = 1 -> a ^ Z.gcd m n mod P = 1.
Proof.
  intros HP Hm Hn. revert m Hm. pattern n. apply Zlt_0_ind; [|exact Hn]. clear n Hn.
  intros n IH Hn m Hm Am An.
  destruct (Z.eq_dec n 0) as [->|Hn0].
  { rewrite Z.gcd_0_r, Z.abs_eq by lia. exact Am. }
  pose proof (Z.mod_pos_bound m n ltac:(lia)) as Hr. pose proof (Z.div_pos m n Hm ltac:(lia)) as Hq.
  rewrite Z.gcd_comm, <- Z.gcd_mod, Z.gcd_comm by exact Hn0. apply IH; [exact Hr|lia|exact An|].
  rewrite (Z.div_mod m n Hn0), Z.pow_add_r, <- Z.mul_mod_idemp_l in Am by lia.
  rewrite (pow_one_multiple P a n (m / n)), Z.mul_1_l in Am by assumption. exact Am.
Qed.

(* the order argument without naming the order: gcd (m, n) kills a as well and, were it prime to r, would divide m / r *)
Lemma pow_one_prime_factor P a m n r : 1 < P -> prime r -> 0 < m -> 0 <= n -> (r | m) ->
  a ^ m mod P = 1 -> a ^ n mod P = 1 -> a ^ (m / r) mod P <> 1 -> (r | n).
Proof.
  intros HP Hr Hm Hn [t Ht] Am An Ar. pose proof (prime_ge_2 r Hr) as Hr2.
  pose proof (pow_one_gcd P a m n HP ltac:(lia) Hn Am An) as AG.
  destruct (Zdivide_dec r (Z.gcd m n)) as [Hrg|Hnrg].
  { apply (Z.divide_trans _ _ _ Hrg), Z.gcd_divide_r. }
  exfalso. apply Ar. rewrite Ht, Z.div_mul by lia.
  destruct (Gauss (Z.gcd m n) r t) as [u Hu].
  - rewrite Z.mul_comm, <- Ht. apply Z.gcd_divide_l.
  - apply rel_prime_sym, prime_rel_prime; assumption.
  - pose proof (Z.gcd_nonneg m n). rewrite Hu, Z.mul_comm. apply pow_one_multiple; try assumption.
    clear - Hm Ht Hr2 Hu H. nia.
Qed.

Lemma pock_one_prime N P r a : 1 < N -> prime P -> (P | N) -> prime r -> (r | N - 1) ->
  a ^ (N - 1) mod N = 1 -> Z.gcd (a ^ ((N - 1) / r) mod N - 1) N = 1 -> (r | P - 1).
Proof.
  intros HN HP HPN Hr HrN A1 G. pose proof (prime_ge_2 P HP) as HP2.
  assert (A1P : a ^ (N - 1) mod P = 1).
  { rewrite (Zmod_div_mod P N) by (assumption || lia). rewrite A1. apply Z.mod_small. lia. }
  apply (pow_one_prime_factor P a (N - 1) (P - 1) r); try assumption; try lia.
  - (* P does not divide a, or a ^ (N - 1) would be 0 modulo P *)
    apply fermat_Z; [exact HP|]. intro D.
    rewrite <- (Z.succ_pred (N - 1)), Z.pow_succ_r in A1P by lia.
    apply (Z.divide_mul_l _ _ (a ^ Z.pred (N - 1))), Z.mod_divide in D; lia.
  - (* otherwise P divides the gcd *)
    intro AX. assert (HPd : (P | a ^ ((N - 1) / r) mod N - 1)).
    { apply Z.mod_divide; [lia|]. rewrite Zminus_mod, <- (Zmod_div_mod P N) by (assumption || lia).
      rewrite AX, (Z.mod_small 1) by lia. reflexivity. }
    assert (HP1 : (P | 1)) by (rewrite <- G; apply Z.gcd_greatest; assumption).
    apply Z.divide_1_r_nonneg in HP1; lia.
Qed.

Lemma distinct_primes_rel_prime r s : prime r -> prime s -> r <> s -> rel_prime r s.
Proof.
  intros Hr Hs Hne. apply prime_rel_prime; [exact Hr|]. intro D.
  apply prime_div_prime in D; auto.
Qed.

Lemma rel_prime_product r l : prime r -> Forall prime l -> ~ In r l -> rel_prime r (fold_right Z.mul 1 l).
Proof.
  intros Hr Hl Hn. induction l as [|s l IH]; cbn [fold_right].
  - apply rel_prime_sym, rel_prime_1.
  - apply not_in_cons in Hn. destruct Hn as [Hne Hn]. apply rel_prime_mult.
    + apply distinct_primes_rel_prime; [exact Hr|exact (Forall_inv Hl)|exact Hne].
    + apply IH; [exact (Forall_inv_tail Hl)|exact Hn].
Qed.

Lemma product_divides l c : Forall prime l -> NoDup l -> Forall (fun r => (r | c)) l -> (fold_right Z.mul 1 l | c).
Proof.
  induction l as [|r l IH]; intros Hp Hd Hall; cbn [fold_right].
  - apply Z.divide_1_l.
  - apply NoDup_cons_iff in Hd. destruct Hd as [Hnin Hd]. destruct (Forall_inv Hall) as [k Hk].
    pose proof (Forall_inv Hp) as Hr. apply Forall_inv_tail in Hp, Hall.
    (* c = k r and the product of the others, prime to r, divides k *)
    rewrite Hk, (Z.mul_comm k r). apply Z.mul_divide_mono_l, (Gauss _ r k).
    + rewrite Z.mul_comm, <- Hk. apply IH; assumption.
    + apply rel_prime_sym, rel_prime_product; assumption.
Qed.

Lemma prod_primes_pos l : Forall prime l -> 0 < fold_right Z.mul 1 l.
Proof.
  induction l as [|r l IH]; intro Hp; cbn [fold_right]; [lia|].
  inversion Hp as [|? ? Hr Hl]; subst. pose proof (prime_ge_2 r Hr). specialize (IH Hl). nia.
Qed.

Lemma exists_prime_divisor s : 1 < s -> exists P, prime P /\ (P | s).
Proof.
  intro Hs. assert (H0 : 0 <= s) by lia. revert Hs. pattern s. apply Zlt_0_ind; [|exact H0]. clear s H0.
  intros s IH _ Hs.
  destruct (prime_dec s) as [Hps|Hnps]; [exists s; split; [assumption|apply Z.divide_refl]|].
  destruct (not_prime_divide s Hs Hnps) as (d & Hd1 & Hd2).
  destruct (IH d ltac:(lia) ltac:(lia)) as (P & HP & HPd). exists P. split; [assumption|].
  eapply Z.divide_trans; eauto.
Qed.

(* a composite N has a divisor s with s * s <= N, and a prime divisor P of s has P * P <= N *)
Lemma prime_of_large_prime_divisors N : 1 < N -> (forall P, prime P -> (P | N) -> N < P * P) -> prime N.
Proof.
  intros HN Hall. destruct (prime_dec N) as [|Hnp]; [assumption|exfalso].
  destruct (small_divisor N HN Hnp) as (s & Hs1 & Hs2 & Hs3).
  destruct (exists_prime_divisor s Hs1) as (P & HP & HPs).
  pose proof (Hall P HP (Z.divide_trans _ _ _ HPs Hs2)). pose proof (prime_ge_2 P HP).
  assert (P <= s) by (apply Z.divide_pos_le; [lia|assumption]). nia.
Qed.

Definition pock_witness (N : Z) (ra : Z * Z) : Prop :=
  let (r, a) := ra in (r | N - 1) /\ a ^ (N - 1) mod N = 1 /\ Z.gcd (a ^ ((N - 1) / r) mod N - 1) N = 1.

(* every prime divisor P of N is 1 mod F, hence larger than F, and F * F > N *)
Theorem pocklington N (cert : list (Z * Z)) :
  1 < N -> Forall prime (map fst cert) -> NoDup (map fst cert) -> Forall (pock_witness N) cert ->
  N < fold_right Z.mul 1 (map fst cert) * fold_right Z.mul 1 (map fst cert) -> prime N.
Proof.
  intros HN Hp Hd Hw Hsq. set (F := fold_right Z.mul 1 (map fst cert)) in *.
  apply prime_of_large_prime_divisors; [exact HN|]. intros P HP HPN.
  assert (HF : (F | P - 1)).
  { apply product_divides; auto. rewrite Forall_map in Hp |- *.
    refine (Forall_impl _ _ (Forall_and Hp Hw)). intros [r a] [Hr (W1 & W2 & W3)].
    apply (pock_one_prime N P r a); assumption. }
  pose proof (prime_ge_2 P HP). pose proof (prod_primes_pos _ Hp) as HF0. fold F in HF0.
  assert (F <= P - 1) by (apply Z.divide_pos_le; [lia|exact HF]). nia.
Qed.
Print Assumptions pocklington.

(* the case F = q of a Sophie Germain pair: (p - 1) / q = 2 and p < q * q need no computation *)
Corollary pock_safe_prime q a : prime q -> 2 < q ->
  a ^ (2 * q) mod (2 * q + 1) = 1 -> Z.gcd (a ^ 2 mod (2 * q + 1) - 1) (2 * q + 1) = 1 -> prime (2 * q + 1).
Proof.
  intros Hq Hq2 A G. apply (pocklington (2 * q + 1) [(q, a)]); cbn [map fst fold_right].
  - lia.
  - constructor; [exact Hq|constructor].
  - constructor; [intros []|constructor].
  - constructor; [|constructor]. cbn [pock_witness].
    replace (2 * q + 1 - 1) with (2 * q) by lia. rewrite Z.div_mul by lia.
    repeat split; [exists 2; reflexivity | exact A | exact G].
  - nia.
Qed.

Fixpoint nodupb (l : list Z) : bool :=
  match l with
  | [] => true
  | x :: t => negb (existsb (Z.eqb x) t) && nodupb t
  end.

Lemma existsb_eqb_In x l : existsb (Z.eqb x) l = true <-> In x l.
Proof.
  rewrite existsb_exists. split.
  - intros (y & Hin & E). apply Z.eqb_eq in E. subst y. exact Hin.
  - intro Hin. exists x. split; [exact Hin|apply Z.eqb_refl].
Qed.

Lemma nodupb_sound l : nodupb l = true -> NoDup l.
Proof.
  induction l as [|x t IH]; intro H; [constructor|].
  cbn [nodupb] in H. apply andb_true_iff in H. destruct H as [H1 H2]. constructor; [|auto].
  rewrite <- existsb_eqb_In. apply negb_true_iff in H1. congruence.
Qed.

(* the witness check through an arbitrary kernel-style modular power [pw] that agrees with the reference *)
Definition pock_witnessb (pw : Z -> Z -> Z -> Z) (N : Z) (ra : Z * Z) : bool :=
  let (r, a) := ra in
  ((N - 1) mod r =? 0) && (pw a (N - 1) N =? 1) && (Z.gcd (pw a ((N - 1) / r) N - 1) N =? 1).

Definition pock_checkb (pw : Z -> Z -> Z -> Z) (N : Z) (cert : list (Z * Z)) : bool :=
  let F := fold_right Z.mul 1 (map fst cert) in
  (1 <? N) && nodupb (map fst cert) && (N <? F * F) && forallb (pock_witnessb pw N) cert.

Lemma pock_witnessb_sound pw N ra : (forall b e m, m <> 0 -> pw b e m = b ^ e mod m) ->
  1 < N -> prime (fst ra) -> pock_witnessb pw N ra = true -> pock_witness N ra.
Proof.
  intros Hpw HN. destruct ra as [r a]. cbn [fst pock_witnessb pock_witness]. intros Hr W.
  pose proof (prime_ge_2 r Hr). rewrite !Hpw in W by lia.
  rewrite !andb_true_iff, !Z.eqb_eq in W. destruct W as [[W1 W2] W3].
  split; [apply Z.mod_divide; [lia|exact W1] | split; [exact W2|exact W3]].
Qed.

Theorem pock_checkb_sound pw N cert :
  (forall b e m, m <> 0 -> pw b e m = b ^ e mod m) ->
  Forall prime (map fst cert) -> pock_checkb pw N cert = true -> prime N.
Proof.
  intros Hpw Hp H. unfold pock_checkb in H.
  rewrite !andb_true_iff, !Z.ltb_lt, forallb_forall in H. destruct H as [[[HN Hd] Hsq] Hw].
  apply (pocklington N cert); [exact HN | exact Hp | apply nodupb_sound; exact Hd | | exact Hsq].
  rewrite Forall_map in Hp. rewrite Forall_forall in Hp |- *. intros ra Hin.
  apply (pock_witnessb_sound pw); [exact Hpw | exact HN | apply Hp, Hin | apply Hw, Hin].
Qed.
Print Assumptions pock_checkb_sound.

(* [if], not [&&]: vm_compute is call-by-value and must never start trial division on a large number *)
Definition small_primeb (r : Z) : bool := if r <? 65536 then prime_check_sqrt r else false.

(* A chain lists (N, certificate) in dependency order: every prime r used in a certificate is either small
   (below 2^16, certified by trial division) or was certified earlier in the chain. *)
Fixpoint chain_checkb (pw : Z -> Z -> Z -> Z) (known : list Z) (chain : list (Z * list (Z * Z))) : bool :=
  match chain with
  | [] => true
  | (N, cert) :: rest =>
      forallb (fun r => small_primeb r || existsb (Z.eqb r) known) (map fst cert)
      && pock_checkb pw N cert && chain_checkb pw (N :: known) rest
  end.

Lemma small_primeb_sound r : small_primeb r = true -> prime r.
Proof. unfold small_primeb. destruct (r <? 65536); [apply prime_check_sqrt_sound|discriminate]. Qed.

Theorem chain_checkb_sound pw : (forall b e m, m <> 0 -> pw b e m = b ^ e mod m) ->
  forall chain known, Forall prime known -> chain_checkb pw known chain = true -> Forall prime (map fst chain).
Proof.
  intros Hpw. induction chain as [|[N cert] rest IH]; intros known Hk H; cbn [map fst]; [constructor|].
  cbn [chain_checkb] in H. rewrite !andb_true_iff, forallb_forall in H. destruct H as [[H1 H2] H3].
  assert (HN : prime N).
  { apply (pock_checkb_sound pw N cert Hpw); [|exact H2].
    rewrite Forall_forall in Hk |- *. intros r Hr. destruct (orb_prop _ _ (H1 r Hr)) as [Hs|He].
    - apply small_primeb_sound, Hs.
    - apply Hk, existsb_eqb_In, He. }
  constructor; [exact HN|]. apply (IH (N :: known)); [constructor; assumption|exact H3].
Qed.
Print Assumptions chain_checkb_sound.

Corollary chain_checkb_prime pw chain : (forall b e m, m <> 0 -> pw b e m = b ^ e mod m) ->
  chain_checkb pw [] chain = true -> forall n, In n (map fst chain) -> prime n.
Proof. intros Hpw H. apply Forall_forall, (chain_checkb_sound pw Hpw chain []); [constructor|exact H]. Qed.
