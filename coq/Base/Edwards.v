(* Base/Edwards.v — the group law of a twisted Edwards curve  -x^2 + y^2 = 1 + d x^2 y^2  (a = -1) over an
   arbitrary field of characteristic <> 2 in which -1 is a square and d is not: the affine addition law is
   complete (no exceptional points), closed on the curve, commutative, associative, has neutral element (0,1)
   and inverses (-x, y). Proved once for an abstract field (Leibniz equality, decidable); instantiated with
   GF(2^255-19) in Proofs/RistrettoGroup.v. The polynomial identities are discharged by [field] / [nsatz];
   closure and associativity by [field] normalising modulo the curve equations used as rewrite rules. *)
From Coq Require Import Ring Field Lia.
From Coq Require Import Ncring Cring Integral_domain NsatzTactic.

Section Edwards.
  Variable F : Type.
  Variables (zero one : F) (add mul sub : F -> F -> F) (opp : F -> F) (div : F -> F -> F) (inv : F -> F).
  Hypothesis Fth : field_theory zero one add mul sub opp div inv (@eq F).
  Hypothesis F_eq_dec : forall a b : F, {a = b} + {a <> b}.
  Add Field Ff : Fth.

  Lemma mul_integral a b : mul a b = zero -> a = zero \/ b = zero.
  Proof.
    intro H. destruct (F_eq_dec a zero) as [E|E]; [left; exact E|right].
    assert (b = mul (inv a) (mul a b)) as -> by (field; exact E). rewrite H. ring.
  Qed.

  Lemma mul_nz a b : a <> zero -> b <> zero -> mul a b <> zero.
  Proof. intros Ha Hb H. destruct (mul_integral _ _ H); contradiction. Qed.

  (* a [field_theory] as the ring and integral-domain classes [nsatz] works with: these instances have no other use *)
  Global Instance Fops : @Ring_ops F zero one add mul sub opp (@eq F) := {}.
  Global Instance Fri : Ring (Ro:=Fops).
  Proof.
    constructor; try (unfold respectful, Proper; unfold equality, eq_notation; cbn; intros; subst; reflexivity);
    try (intros; compute; ring).
    compute. exact eq_equivalence.
  Defined.
  Global Instance Fcri : Cring (Rr:=Fri).
  Proof. red. intros; compute; ring. Defined.
  Global Instance Fdi : Integral_domain (Rcr:=Fcri).
  Proof. constructor. exact mul_integral. exact (F_1_neq_0 Fth). Defined.

  Declare Scope F_scope.
  Delimit Scope F_scope with F.
  Local Open Scope F_scope.
  Infix "+" := add : F_scope.
  Infix "*" := mul : F_scope.
  Infix "-" := sub : F_scope.
  Infix "/" := div : F_scope.
  Notation "- x" := (opp x) : F_scope.

  Lemma mul_cancel_r a b c : c <> zero -> a * c = b * c -> a = b.
  Proof. intros Hc E. assert (a = a * c / c) as -> by (field; exact Hc). rewrite E. field. exact Hc. Qed.

  Lemma div_eq u v u' v' : v <> zero -> v' <> zero -> u * v' = u' * v -> u / v = u' / v'.
  Proof. intros Hv Hv' E. field_simplify_eq; [|split; assumption]. rewrite E. ring. Qed.

  Lemma div_zero_iff u v : v <> zero -> u / v = zero <-> u = zero.
  Proof.
    intro Hv. split; intro H.
    - transitivity (u / v * v); [field; exact Hv | rewrite H; ring].
    - rewrite H. field. exact Hv.
  Qed.

  Lemma add_mul_opp_zero_iff a b c : a + b * - c = zero <-> a = b * c.
  Proof.
    split; intro H.
    - transitivity (a + b * - c + b * c); [ring | rewrite H; ring].
    - rewrite H. ring.
  Qed.

  Lemma sq_eq_cases a b : a * a = b * b -> a = b \/ a = - b.
  Proof.
    intro H. assert (E : (a - b) * (a + b) = zero) by nsatz.
    destruct (mul_integral _ _ E) as [E1|E1]; [left|right]; nsatz.
  Qed.

  Variable d : F.
  Variable i : F.
  Hypothesis d_nonsquare : forall x, x * x <> d.
  Hypothesis i_sq : i * i = - one.
  Hypothesis two_nz : one + one <> zero.

  Definition onc (P : F * F) : Prop :=
    let '(x, y) := P in y * y - x * x = one + d * x * x * y * y.

  Definition eid : F * F := (zero, one).
  Definition eneg (P : F * F) : F * F := let '(x, y) := P in (- x, y).
  Definition eadd (P Q : F * F) : F * F :=
    let '(x1, y1) := P in let '(x2, y2) := Q in
    ((x1 * y2 + y1 * x2) / (one + d * x1 * x2 * y1 * y2), (y1 * y2 + x1 * x2) / (one - d * x1 * x2 * y1 * y2)).

  (* completeness (Bernstein, Birkner, Joye, Lange, Peters 2008, section 6): the denominators never vanish.
     If e = d x1 x2 y1 y2 had e^2 = 1, then (i x1 + e y1)^2 = d (x1 y1 (i x2 + y2))^2, so i x2 + y2 = 0 as d is
     no square; the same for the points mirrored in the x-axis gives i x2 - y2 = 0, hence y2 = 0, which is not
     on the curve. *)
  Lemma eps_half x1 y1 x2 y2 e :
    onc (x1, y1) -> onc (x2, y2) -> e = d * x1 * x2 * y1 * y2 -> e * e = one -> i * x2 + y2 = zero.
  Proof.
    cbn. intros C1 C2 He He2.
    assert (Hx1 : x1 <> zero).
    { intro Z. apply (F_1_neq_0 Fth). subst x1. nsatz. }
    assert (Hy1 : y1 <> zero).
    { intro Z. apply (F_1_neq_0 Fth). subst y1. nsatz. }
    assert (A : (i * x1 + e * y1) * (i * x1 + e * y1) = d * x1 * x1 * y1 * y1 * ((i * x2 + y2) * (i * x2 + y2))) by nsatz.
    destruct (F_eq_dec (i * x2 + y2) zero) as [Z1|N1]; [exact Z1|].
    destruct (d_nonsquare ((i * x1 + e * y1) / (x1 * y1 * (i * x2 + y2)))).
    transitivity (((i * x1 + e * y1) * (i * x1 + e * y1)) / ((x1 * y1 * (i * x2 + y2)) * (x1 * y1 * (i * x2 + y2)))).
    - field. repeat split; assumption.
    - rewrite A. field. repeat split; assumption.
  Qed.

  Lemma onc_opp_y x y : onc (x, y) -> onc (x, - y).
  Proof. cbn. intro C. transitivity (y * y - x * x); [ring|]. rewrite C. ring. Qed.

  Lemma eps_contra x1 y1 x2 y2 e :
    onc (x1, y1) -> onc (x2, y2) -> e = d * x1 * x2 * y1 * y2 -> e * e = one -> False.
  Proof.
    intros C1 C2 He He2.
    pose proof (eps_half x1 y1 x2 y2 e C1 C2 He He2) as Z1.
    assert (Z2 : i * x2 + - y2 = zero).
    { apply (eps_half x1 (- y1) x2 (- y2) e); [apply onc_opp_y, C1 | apply onc_opp_y, C2 | rewrite He; ring | exact He2]. }
    assert (T : (one + one) * y2 = zero).
    { transitivity (i * x2 + y2 - (i * x2 + - y2)); [ring | rewrite Z1, Z2; ring]. }
    destruct (mul_integral _ _ T) as [T'|T']; [contradiction|].
    apply (F_1_neq_0 Fth). cbn in C2. subst y2. nsatz.
  Qed.

  Lemma den_plus_nz x1 y1 x2 y2 : onc (x1, y1) -> onc (x2, y2) -> one + d * x1 * x2 * y1 * y2 <> zero.
  Proof.
    intros C1 C2 H. apply (eps_contra x1 y1 x2 y2 (d * x1 * x2 * y1 * y2) C1 C2 eq_refl).
    assert (E : d * x1 * x2 * y1 * y2 = - one) by nsatz. rewrite E. ring.
  Qed.

  Lemma den_minus_nz x1 y1 x2 y2 : onc (x1, y1) -> onc (x2, y2) -> one - d * x1 * x2 * y1 * y2 <> zero.
  Proof.
    intros C1 C2 H. apply (eps_contra x1 y1 x2 y2 (d * x1 * x2 * y1 * y2) C1 C2 eq_refl).
    assert (E : d * x1 * x2 * y1 * y2 = one) by nsatz. rewrite E. ring.
  Qed.

  (* 1 + d y^2 never vanishes either (d is not a square, -1 is): the denominator of the Ed25519 decoder *)
  Lemma one_plus_dyy_nz y : y * y * d + one <> zero.
  Proof.
    intro H. destruct (F_eq_dec y zero) as [Y0|Yn].
    - apply (F_1_neq_0 Fth). rewrite <- H, Y0. ring.
    - apply (d_nonsquare (i / y)).
      assert (E : y * y * d = - one) by (transitivity (y * y * d + one - one); [ring | rewrite H; ring]).
      transitivity ((i * i) / (y * y)); [field; exact Yn|]. rewrite i_sq, <- E. field. exact Yn.
  Qed.

  (* The curve equation as a rewrite rule for [ring]/[field]: with e = 1/d it reads x^2 y^2 = (y^2 - x^2 - 1) e.
     The left-hand sides for distinct points, and d e of [d e = 1], are pairwise coprime monomials, so the
     rules are confluent (Buchberger's first criterion): a polynomial identity that holds on the curve is
     found by normalising both sides with them, and no cofactors have to be supplied. *)
  Lemma d_inv : exists e, d * e = one.
  Proof. exists (one / d). field. intro H. apply (d_nonsquare zero). rewrite H. ring. Qed.

  Lemma onc_rule x y e : d * e = one -> onc (x, y) -> x * x * y * y = (y * y - x * x - one) * e.
  Proof.
    cbn. intros Rd C. transitivity (d * e * (x * x * y * y)); [rewrite Rd; ring|].
    transitivity ((one + d * x * x * y * y - one) * e); [ring|]. rewrite <- C. ring.
  Qed.

  Lemma onc_eid : onc eid.
  Proof. cbn. ring. Qed.

  Lemma onc_eneg P : onc P -> onc (eneg P).
  Proof. destruct P as [x y]. cbn. intro C. nsatz. Qed.

  Lemma eadd_onc P Q : onc P -> onc Q -> onc (eadd P Q).
  Proof.
    destruct P as [x1 y1], Q as [x2 y2]. intros C1 C2.
    pose proof (den_plus_nz _ _ _ _ C1 C2) as Dp. pose proof (den_minus_nz _ _ _ _ C1 C2) as Dm.
    destruct d_inv as [e Rd].
    pose proof (onc_rule _ _ _ Rd C1) as R1. pose proof (onc_rule _ _ _ Rd C2) as R2.
    cbn. field [R1 R2 Rd]. split; assumption.
  Qed.

  Lemma eadd_comm P Q : eadd P Q = eadd Q P.
  Proof.
    destruct P as [x1 y1], Q as [x2 y2]. cbn. f_equal; f_equal; ring.
  Qed.

  Lemma eadd_id_l P : eadd eid P = P.
  Proof.
    destruct P as [x y]. cbn. f_equal; field; rewrite ?(Rmul_0_l (F_R Fth)).
    all: intro H; apply (F_1_neq_0 Fth); rewrite <- H; ring.
  Qed.

  Lemma eadd_id_r P : eadd P eid = P.
  Proof. rewrite eadd_comm. apply eadd_id_l. Qed.

  Lemma eadd_neg_r P : onc P -> eadd P (eneg P) = eid.
  Proof.
    destruct P as [x y]. intro C. pose proof (onc_eneg _ C) as C'.
    pose proof (den_plus_nz _ _ _ _ C C') as Dp. pose proof (den_minus_nz _ _ _ _ C C') as Dm.
    cbn in *. unfold eid. f_equal.
    - field_simplify_eq; [ring | exact Dp].
    - field_simplify_eq; [nsatz | exact Dm].
  Qed.

  Lemma eadd_neg_l P : onc P -> eadd (eneg P) P = eid.
  Proof. intro C. rewrite eadd_comm. now apply eadd_neg_r. Qed.

  (* The outer denominators are non-zero because the inner sums are on the curve; the cross-multiplied
     equations then contain the four inner denominators only, and [field] clears those and compares the two
     sides modulo the three curve equations. *)
  Theorem eadd_assoc P Q R : onc P -> onc Q -> onc R -> eadd (eadd P Q) R = eadd P (eadd Q R).
  Proof.
    destruct P as [x1 y1], Q as [x2 y2], R as [x3 y3]. intros C1 C2 C3.
    pose proof (den_plus_nz _ _ _ _ C1 C2) as A12. pose proof (den_minus_nz _ _ _ _ C1 C2) as B12.
    pose proof (den_plus_nz _ _ _ _ C2 C3) as A23. pose proof (den_minus_nz _ _ _ _ C2 C3) as B23.
    pose proof (eadd_onc _ _ C1 C2) as C12. pose proof (eadd_onc _ _ C2 C3) as C23.
    unfold eadd in C12, C23 |- *.
    pose proof (den_plus_nz _ _ _ _ C12 C3) as AL. pose proof (den_minus_nz _ _ _ _ C12 C3) as BL.
    pose proof (den_plus_nz _ _ _ _ C1 C23) as AR. pose proof (den_minus_nz _ _ _ _ C1 C23) as BR.
    destruct d_inv as [e Rd].
    pose proof (onc_rule _ _ _ Rd C1) as R1. pose proof (onc_rule _ _ _ Rd C2) as R2.
    pose proof (onc_rule _ _ _ Rd C3) as R3.
    f_equal.
    - apply div_eq; [exact AL|exact AR|]. field [R1 R2 R3 Rd]. repeat split; assumption.
    - apply div_eq; [exact BL|exact BR|]. field [R1 R2 R3 Rd]. repeat split; assumption.
  Qed.

  Lemma eadd_cancel_r P Q : onc P -> onc Q -> eadd (eadd P Q) (eneg Q) = P.
  Proof.
    intros CP CQ. rewrite eadd_assoc by auto using onc_eneg. rewrite eadd_neg_r by exact CQ. apply eadd_id_r.
  Qed.

  Lemma eadd_swap P Q R S : onc P -> onc Q -> onc R -> onc S ->
    eadd (eadd P Q) (eadd R S) = eadd (eadd P R) (eadd Q S).
  Proof.
    intros CP CQ CR CS.
    rewrite (eadd_assoc P Q (eadd R S)) by auto using eadd_onc.
    rewrite <- (eadd_assoc Q R S) by auto.
    rewrite (eadd_comm Q R).
    rewrite (eadd_assoc R Q S) by auto.
    rewrite <- (eadd_assoc P R (eadd Q S)) by auto using eadd_onc. reflexivity.
  Qed.

  Lemma eneg_eadd P Q : onc P -> onc Q -> eadd (eneg P) (eneg Q) = eneg (eadd P Q).
  Proof.
    destruct P as [x y], Q as [u v]. intros C1 C2.
    pose proof (den_plus_nz _ _ _ _ C1 C2) as A1. pose proof (den_minus_nz _ _ _ _ C1 C2) as B1.
    pose proof (den_plus_nz _ _ _ _ (onc_eneg _ C1) (onc_eneg _ C2)) as A2.
    pose proof (den_minus_nz _ _ _ _ (onc_eneg _ C1) (onc_eneg _ C2)) as B2.
    cbn in *. f_equal; field; assumption.
  Qed.

  Fixpoint nmul (n : nat) (P : F * F) : F * F :=
    match n with O => eid | S k => eadd P (nmul k P) end.

  Fixpoint pmul (e : positive) (P : F * F) : F * F :=
    match e with
    | xH => P
    | xO e' => let h := pmul e' P in eadd h h
    | xI e' => let h := pmul e' P in eadd (eadd h h) P
    end.

  Lemma nmul_onc n P : onc P -> onc (nmul n P).
  Proof. intro C. induction n as [|n IH]; cbn [nmul]; [exact onc_eid | apply eadd_onc; assumption]. Qed.

  Lemma nmul_add a b P : onc P -> nmul (a + b) P = eadd (nmul a P) (nmul b P).
  Proof.
    intro C. induction a as [|a IH]; cbn [nmul Nat.add].
    - now rewrite eadd_id_l.
    - rewrite IH. rewrite eadd_assoc; auto using nmul_onc.
  Qed.

  Lemma nmul_1 P : nmul 1 P = P.
  Proof. cbn. apply eadd_id_r. Qed.

  Lemma nmul_eadd n P Q : onc P -> onc Q -> nmul n (eadd P Q) = eadd (nmul n P) (nmul n Q).
  Proof.
    intros CP CQ. induction n as [|n IH]; cbn [nmul].
    - now rewrite eadd_id_l.
    - rewrite IH. apply eadd_swap; auto using nmul_onc.
  Qed.

  Lemma nmul_eid n : nmul n eid = eid.
  Proof. induction n as [|n IH]; cbn [nmul]; [reflexivity|]. rewrite IH. apply eadd_id_l. Qed.

  Lemma nmul_mul a b P : onc P -> nmul (a * b) P = nmul a (nmul b P).
  Proof.
    intro C. induction a as [|a IH]; cbn [nmul Nat.mul]; [reflexivity|].
    rewrite nmul_add by exact C. now rewrite IH.
  Qed.

  Lemma nmul_mod n a P : n <> O -> onc P -> nmul n P = eid -> nmul (Nat.modulo a n) P = nmul a P.
  Proof.
    intros Hn C H. rewrite (Nat.div_mod a n Hn) at 2.
    rewrite nmul_add, Nat.mul_comm, nmul_mul, H, nmul_eid by exact C. symmetry. apply eadd_id_l.
  Qed.

  Lemma nmul_order n m P : onc P -> nmul n P = eid -> nmul n (nmul m P) = eid.
  Proof. intros C H. rewrite <- nmul_mul, Nat.mul_comm, nmul_mul, H by exact C. apply nmul_eid. Qed.

  Lemma nmul_eneg n P : onc P -> nmul n (eneg P) = eneg (nmul n P).
  Proof.
    intro C. induction n as [|n IH]; cbn [nmul].
    - unfold eid, eneg. f_equal. ring.
    - rewrite IH. apply eneg_eadd; auto using nmul_onc.
  Qed.

  Lemma pmul_nmul e P : onc P -> pmul e P = nmul (Pos.to_nat e) P.
  Proof.
    intro C. induction e as [e IH|e IH|]; cbn [pmul].
    - rewrite IH. rewrite Pos2Nat.inj_xI. cbn [nmul]. rewrite <- nmul_add by exact C.
      replace (2 * Pos.to_nat e)%nat with (Pos.to_nat e + Pos.to_nat e)%nat by lia.
      apply eadd_comm.
    - rewrite IH. rewrite Pos2Nat.inj_xO. rewrite <- nmul_add by exact C. f_equal. lia.
    - now rewrite Pos2Nat.inj_1, nmul_1.
  Qed.

  (* the 4-torsion points (0, +-1), (+-i, 0) and the cross-product equality of RFC 9496 4.3.3 *)
  Definition tors4 (D : F * F) : Prop :=
    D = (zero, one) \/ D = (zero, - one) \/ D = (i, zero) \/ D = (- i, zero).

  Lemma tors4_iff x y : onc (x, y) -> tors4 (x, y) <-> x = zero \/ y = zero.
  Proof.
    cbn. intro C. unfold tors4. split.
    - intros [E|[E|[E|E]]]; injection E as Ex Ey; auto.
    - intros [Z|Z]; rewrite Z in *.
      + assert (S : y * y = one * one) by nsatz. destruct (sq_eq_cases _ _ S) as [S1|S1]; rewrite S1; auto.
      + assert (S : x * x = i * i) by nsatz. destruct (sq_eq_cases _ _ S) as [S1|S1]; rewrite S1; auto.
  Qed.

  Theorem cross_eq_iff_tors4 x1 y1 x2 y2 : onc (x1, y1) -> onc (x2, y2) ->
    (x1 * y2 = y1 * x2 \/ y1 * y2 = x1 * x2) <-> tors4 (eadd (x1, y1) (eneg (x2, y2))).
  Proof.
    intros C1 C2. pose proof (onc_eneg _ C2) as C2'. pose proof (eadd_onc _ _ C1 C2') as CD.
    unfold eneg, eadd in *. rewrite (tors4_iff _ _ CD).
    rewrite (div_zero_iff _ _ (den_plus_nz _ _ _ _ C1 C2')), (div_zero_iff _ _ (den_minus_nz _ _ _ _ C1 C2')).
    rewrite !add_mul_opp_zero_iff. reflexivity.
  Qed.
End Edwards.
