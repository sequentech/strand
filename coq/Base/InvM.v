(* Base/InvM.v — correctness of the fuelled extended Euclid [egcd_fuel] and of [invm]. *)
From Coq Require Import ZArith Znumtheory Lia.
From Strand Require Import Base.ZUtil.
Open Scope Z_scope.

Definition cong (a m s r : Z) : Prop := exists c, s * a - r = c * m.

Lemma cong_step a m s0 s1 r0 r1 : r1 <> 0 ->
  cong a m s0 r0 -> cong a m s1 r1 -> cong a m (s0 - r0 / r1 * s1) (r0 mod r1).
Proof.
  intros Hr [c0 H0] [c1 H1]. exists (c0 - r0 / r1 * c1). rewrite Z.mod_eq by exact Hr.
  replace ((s0 - r0 / r1 * s1) * a - (r0 - r1 * (r0 / r1)))
    with ((s0 * a - r0) - r0 / r1 * (s1 * a - r1)) by ring.
  rewrite H0, H1. ring.
Qed.

Lemma egcd_fuel_r1_0 fuel r0 s0 s1 : egcd_fuel fuel r0 0 s0 s1 = (r0, s0).
Proof. destruct fuel; reflexivity. Qed.

Lemma egcd_fuel_step f r0 r1 s0 s1 :
  r1 <> 0 ->
  egcd_fuel (S f) r0 r1 s0 s1 =
  egcd_fuel f r1 (r0 mod r1) s1 (s0 - (r0 / r1) * s1).
Proof.
  intro Hr1. cbn [egcd_fuel].
  destruct (r1 =? 0) eqn:E.
  - apply Z.eqb_eq in E. contradiction.
  - cbv zeta. replace (r0 - r0 / r1 * r1) with (r0 mod r1); [reflexivity|].
    rewrite Z.mod_eq by exact Hr1. ring.
Qed.

Lemma gcd_step r0 r1 : r1 <> 0 -> Z.gcd r1 (r0 mod r1) = Z.gcd r0 r1.
Proof.
  intro Hr1. rewrite (Z.gcd_comm r1 (r0 mod r1)).
  rewrite Z.gcd_mod by exact Hr1. apply Z.gcd_comm.
Qed.

Lemma mod_half r0 r1 : 0 < r1 < r0 -> 2 * (r0 mod r1) < r0.
Proof.
  intros H.
  pose proof (Z.mod_pos_bound r0 r1 ltac:(lia)) as Hb.
  pose proof (Z.div_mod r0 r1 ltac:(lia)) as Hd.
  assert (Hq : 1 <= r0 / r1).
  { apply Z.div_le_lower_bound; lia. }
  nia.
Qed.

Lemma egcd_fuel_done a m fuel r0 s0 s1 : 0 < r0 -> cong a m s0 r0 ->
  exists g s, egcd_fuel fuel r0 0 s0 s1 = (g, s) /\ g = Z.gcd r0 0 /\ cong a m s g.
Proof.
  intros Hr C0. exists r0, s0. rewrite egcd_fuel_r1_0, Z.gcd_0_r.
  repeat split; [rewrite Z.abs_eq; lia | exact C0].
Qed.

(* The product of the two remainders is more than halved by every step, so it bounds the number of
   steps left. *)
Lemma egcd_fuel_correct a m :
  forall (fuel : nat) r0 r1 s0 s1,
    0 <= r1 < r0 -> r0 * r1 < 2 ^ Z.of_nat fuel ->
    cong a m s0 r0 -> cong a m s1 r1 ->
    exists g s, egcd_fuel fuel r0 r1 s0 s1 = (g, s) /\ g = Z.gcd r0 r1 /\ cong a m s g.
Proof.
  induction fuel as [|f IH]; intros r0 r1 s0 s1 Hr Hf C0 C1.
  - change (2 ^ Z.of_nat 0) with 1 in Hf.
    assert (r1 = 0) by nia. subst r1. apply egcd_fuel_done; [lia|exact C0].
  - destruct (Z.eq_dec r1 0) as [->|E1]; [apply egcd_fuel_done; [lia|exact C0]|].
    rewrite egcd_fuel_step by exact E1.
    rewrite <- (gcd_step r0 r1 E1).
    pose proof (Z.mod_pos_bound r0 r1 ltac:(lia)) as Hb.
    pose proof (mod_half r0 r1 ltac:(lia)) as Hh.
    rewrite Nat2Z.inj_succ, Z.pow_succ_r in Hf by lia.
    apply IH; [lia|nia|exact C1|apply cong_step; assumption].
Qed.

Lemma invm_spec a m : 1 < m ->
  match invm a m with
  | Some r => 0 <= r < m /\ (a * r) mod m = 1
  | None => Z.gcd a m <> 1
  end.
Proof.
  intro Hm. unfold invm.
  pose proof (Z.mod_pos_bound a m ltac:(lia)) as Hb.
  destruct (egcd_fuel_correct a m (egcd_steps m) m (a mod m) 0 1 ltac:(lia))
    as (g & s & -> & -> & [c Hc]).
  - (* m <= 2^L for L = log2_up m, and the fuel is 2L + 2 *)
    pose proof (Z.log2_up_nonneg m) as HL. destruct (Z.log2_up_spec m Hm) as [_ Hp].
    replace (Z.of_nat (egcd_steps m)) with (Z.log2_up m + Z.log2_up m + 2) by (unfold egcd_steps; lia).
    rewrite !Z.pow_add_r by lia. nia.
  - exists (-1). ring.
  - exists (a / m). rewrite Z.mod_eq by lia. ring.
  - rewrite gcd_step in * by lia.
    destruct (Z.eqb_spec (Z.gcd a m) 1) as [E|E]; [|exact E].
    split; [apply Z.mod_pos_bound; lia|].
    rewrite Z.mul_mod_idemp_r by lia.
    replace (a * s) with (1 + c * m) by lia.
    rewrite Z.mod_add by lia. apply Z.mod_1_l; exact Hm.
Qed.

Theorem invm_some : forall a m r, 1 < m -> invm a m = Some r ->
  0 <= r < m /\ (a * r) mod m = 1.
Proof. intros a m r Hm H. pose proof (invm_spec a m Hm) as S. rewrite H in S. exact S. Qed.
Print Assumptions invm_some.

Theorem invm_complete : forall a m, 1 < m -> Z.gcd a m = 1 -> exists r, invm a m = Some r.
Proof.
  intros a m Hm Hgcd. pose proof (invm_spec a m Hm) as S.
  destruct (invm a m) as [r|]; [exists r; reflexivity|contradiction].
Qed.
Print Assumptions invm_complete.

Theorem invm_none : forall a m, 1 < m -> invm a m = None -> Z.gcd a m <> 1.
Proof. intros a m Hm H. pose proof (invm_spec a m Hm) as S. rewrite H in S. exact S. Qed.
Print Assumptions invm_none.

Lemma inv_gcd_1 a m r : 1 < m -> (a * r) mod m = 1 -> Z.gcd a m = 1.
Proof.
  intros Hm H.
  apply Zgcd_1_rel_prime. apply bezout_rel_prime.
  apply (Bezout_intro a m 1 r (- ((a * r) / m))).
  pose proof (Z.div_mod (a * r) m ltac:(lia)) as Hd. rewrite H in Hd. lia.
Qed.

Theorem invm_unique : forall a m r, 1 < m -> 0 <= r < m -> (a * r) mod m = 1 ->
  invm a m = Some r.
Proof.
  intros a m r Hm Hr H.
  destruct (invm_complete a m Hm (inv_gcd_1 a m r Hm H)) as [r' Hr'].
  rewrite Hr'. f_equal.
  destruct (invm_some a m r' Hm Hr') as [Hb' H'].
  (* r' = r' * (a * r) = (a * r') * r = r modulo m *)
  assert (E : r' mod m = r mod m).
  { rewrite <- (Z.mul_1_r r'), <- H, Z.mul_mod_idemp_r by lia.
    replace (r' * (a * r)) with (a * r' * r) by ring.
    rewrite <- Z.mul_mod_idemp_l, H', Z.mul_1_l by lia. reflexivity. }
  rewrite !Z.mod_small in E by lia. exact E.
Qed.
Print Assumptions invm_unique.

Theorem invm_prime : forall a p, prime p -> a mod p <> 0 ->
  exists r, invm a p = Some r /\ 0 <= r < p /\ (a * r) mod p = 1.
Proof.
  intros a p Hp Ha.
  assert (Hp1 : 1 < p) by (destruct Hp; assumption).
  assert (Hg : Z.gcd a p = 1).
  { apply Zgcd_1_rel_prime. apply rel_prime_sym. apply prime_rel_prime; [exact Hp|].
    intro Hd. apply Ha. apply Z.mod_divide; [lia | exact Hd]. }
  destruct (invm_complete a p Hp1 Hg) as [r Hr].
  exists r. split; [exact Hr|]. apply invm_some; assumption.
Qed.
Print Assumptions invm_prime.

Example invm_ex1 : invm 3 23 = Some 8.
Proof. vm_compute. reflexivity. Qed.

Example invm_ex2 : invm 6 9 = None.
Proof. vm_compute. reflexivity. Qed.
