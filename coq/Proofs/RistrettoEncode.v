(* Proofs/RistrettoEncode.v — RFC 9496 ENCODE depends only on the curve point, not on its projective representation:
   for valid extended points P, Q with the same affine image (and on which the encoder's inverse square root exists, as it
   does on everything DECODE returns), compress P = compress Q. The description of one encoder run behind it
   (compress_spec) also gives ENCODE (DECODE bs) = bs, and with that the byte-level round trip of the ristretto backend:
   whatever decrypts to the same curve point serialises to the same bytes (Proofs/RistrettoCanon.v). *)
From Coq Require Import ZArith Field.
From Coq Require Import Ncring Cring Integral_domain.
From Strand Require Import Base.ZpField Base.Edwards Model.Codec Model.Ristretto
  Proofs.RistrettoGroup Proofs.RistrettoDecode Proofs.SqrtRatio.
Open Scope Z_scope.

Local Instance Fp_ops : @Ring_ops Fp f0 f1 fa fm fs fo (@eq Fp) := Fops Fp f0 f1 fa fm fs fo.
Local Instance Fp_ri : Ring (Ro:=Fp_ops) := Fri Fp f0 f1 fa fm fs fo fd fi Fth.
Local Instance Fp_cri : Cring (Rr:=Fp_ri) := Fcri Fp f0 f1 fa fm fs fo fd fi Fth.
Local Instance Fp_di : Integral_domain (Rcr:=Fp_cri) := Fdi Fp f0 f1 fa fm fs fo fd fi Fth F_dec.

(* the quantities ENCODE computes, as functions of the AFFINE point (x, y): kF the constant 1/sqrt(a-d), W1 the argument
   of the inverse square root, rotF "rotate" (x y negative), xsF / ysF the coordinates after rotation and the sign change
   negF, dF' the denominator *)
Definition kF : Fp := F invsqrt_a_minus_d.
Definition W1 (x y : Fp) : Fp := fm (fm (fa f1 y) (fs f1 y)) (fm (fm x y) (fm x y)).
Definition rotF (x y : Fp) : bool := Z.odd (zv fp (fm x y)).
Definition xsF (x y : Fp) : Fp := if rotF x y then fm y iF else x.
Definition negF (x y : Fp) : bool := Z.odd (zv fp (xsF x y)).
Definition ysF (x y : Fp) : Fp :=
  let y0 := if rotF x y then fm x iF else y in if negF x y then fo y0 else y0.
Definition dF' (x y : Fp) : Fp := if rotF x y then fm (fm (fa f1 y) (fs f1 y)) kF else fm x y.

(* the encoder's inverse square root exists *)
Definition sq_ok (A : Fp * Fp) : Prop := let '(x, y) := A in exists r, fm (fm r r) (W1 x y) = f1.

(* the encoder's first quantities u1, u2 and the argument of its square root, on a representation (x L, y L, L, _) *)
Lemma compress_w K P x y : F (px P) = fm x (F (pz P)) -> F (py P) = fm y (F (pz P)) ->
  let L := F (pz P) in
  let u1 := fmul K (fadd K (pz P) (py P)) (fsub K (pz P) (py P)) in
  let u2 := fmul K (px P) (py P) in
  F u1 = fm (fm L L) (fm (fa f1 y) (fs f1 y)) /\ F u2 = fm (fm L L) (fm x y) /\
  F (fmul K u1 (fsq K u2)) = fm (fm (fm (fm L L) L) (fm (fm L L) L)) (W1 x y).
Proof.
  intros EX EY L u1 u2.
  assert (Eu1 : F u1 = fm (fm L L) (fm (fa f1 y) (fs f1 y))) by (unfold u1; rewrite F_fmul, F_fadd, F_fsub, EY; fold L; ring).
  assert (Eu2 : F u2 = fm (fm L L) (fm x y)) by (unfold u2; rewrite F_fmul, EX, EY; fold L; ring).
  split; [exact Eu1|]. split; [exact Eu2|]. unfold fsq, W1. rewrite !F_fmul, Eu1, Eu2. ring.
Qed.

(* multiplying by z_inv = 1/Z turns a projective quantity b Z into the canonical integer of the affine b: this is how
   the encoder's sign tests become tests on the affine point *)
Lemma fmul_zinv K zinv L a b : fm (F zinv) L = f1 -> F a = fm b L -> fmul K a zinv = zv fp b.
Proof.
  intros Zi E. rewrite fmul_zv, E. f_equal. transitivity (fm b (fm (F zinv) L)); [ring|]. rewrite Zi. ring.
Qed.

Theorem compress_spec K P : valid P -> sq_ok (aff P) ->
  let '(x, y) := aff P in
  exists s, compress K P = le_fixed 32 s /\ s = zv fp (F s) /\ Z.odd s = false /\
            fm (fm (F s) (F s)) (W1 x y) = fm (fm (dF' x y) (fs f1 (ysF x y))) (fm (dF' x y) (fs f1 (ysF x y))).
Proof.
  intro V. destruct (valid_coords P V) as (x & y & -> & _ & Hz & EX & EY & ET). intros (r & Hr).
  destruct (compress_w K P x y EX EY) as (Eu1 & Eu2 & Ew).
  set (L := F (pz P)) in *.
  unfold compress.
  set (u1 := fmul K (fadd K (pz P) (py P)) (fsub K (pz P) (py P))) in *.
  set (u2 := fmul K (px P) (py P)) in *.
  set (w := fmul K u1 (fsq K u2)) in *.
  (* the inverse square root exists for this representation too *)
  destruct (invsqrt_complete K w (fd r (fm (fm L L) L))) as [Ws SQc].
  { rewrite Ew, <- Hr. field. exact Hz. }
  destruct (sqrt_ratio_m1 K 1 w) as [ws I]. cbn [fst snd] in Ws, SQc.
  set (den1 := fmul K I u1). set (den2 := fmul K I u2).
  set (zinv := fmul K (fmul K den1 den2) (pt P)).
  assert (Zi : fm (F zinv) L = f1).
  { transitivity (fm (F w) (fm (F I) (F I))); [|exact SQc].
    unfold zinv, den1, den2. rewrite !F_fmul, Eu1, Eu2, ET, Ew. fold L. unfold W1. ring. }
  assert (Rt : fmul K (pt P) zinv = zv fp (fm x y)) by (apply (fmul_zinv K zinv L _ _ Zi); exact ET).
  assert (Erot : fis_neg (fmul K (pt P) zinv) = rotF x y) by (unfold fis_neg, rotF; now rewrite Rt).
  rewrite Erot.
  set (xs := if rotF x y then fmul K (py P) sqrt_m1 else px P).
  assert (Rx : fmul K xs zinv = zv fp (xsF x y)).
  { apply (fmul_zinv K zinv L _ _ Zi). unfold xs, xsF. destruct (rotF x y); [rewrite F_fmul, EY; fold L iF; ring | exact EX]. }
  assert (Eneg : fis_neg (fmul K xs zinv) = negF x y) by (unfold fis_neg, negF; now rewrite Rx).
  rewrite Eneg.
  set (ys0 := if rotF x y then fmul K (px P) sqrt_m1 else py P).
  set (ys := if negF x y then fneg K ys0 else ys0).
  assert (Eys : F ys = fm L (ysF x y)).
  { unfold ys, ys0, ysF. destruct (negF x y), (rotF x y); rewrite ?F_fneg, ?F_fmul, ?EX, ?EY; fold L iF; ring. }
  set (dinv := if rotF x y then fmul K den1 invsqrt_a_minus_d else den2).
  assert (Edinv : F dinv = fm (fm (F I) (fm L L)) (dF' x y)).
  { unfold dinv, dF', den1, den2. destruct (rotF x y); rewrite !F_fmul, ?Eu1, ?Eu2; fold kF; ring. }
  set (c := fmul K dinv (fsub K (pz P) ys)).
  exists (fabs K c).
  assert (Cc : canon c) by (unfold c; apply fmod_canon).
  split; [reflexivity|]. split; [now apply fabs_canon|]. split; [now apply fabs_even|].
  rewrite F_fabs_sq. unfold c. rewrite F_fmul, F_fsub, Edinv, Eys. fold L.
  (* (I L^3)^2 W1 = 1 *)
  assert (K1 : fm (fm (fm (F I) (fm (fm L L) L)) (fm (F I) (fm (fm L L) L))) (W1 x y) = f1).
  { transitivity (fm (F w) (fm (F I) (F I))); [rewrite Ew; ring | exact SQc]. }
  transitivity (fm (fm (fm (fm (F I) (fm (fm L L) L)) (fm (F I) (fm (fm L L) L))) (W1 x y))
                   (fm (fm (dF' x y) (fs f1 (ysF x y))) (fm (dF' x y) (fs f1 (ysF x y))))); [ring|].
  rewrite K1. ring.
Qed.

Lemma W1_sq_nz x y : sq_ok (x, y) -> W1 x y <> f0.
Proof. intros (r & Hr) Z. apply (F_1_neq_0 Fth). rewrite <- Hr, Z. ring. Qed.

(* the degenerate points (W1 = 0: the 4-torsion) all encode to the zero string, whatever their representation *)
Lemma compress_degenerate K P : valid P -> (let '(x, y) := aff P in W1 x y = f0) -> compress K P = le_fixed 32 0.
Proof.
  intro V. destruct (valid_coords P V) as (x & y & -> & _ & Hz & EX & EY & ET). intro HW.
  destruct (compress_w K P x y EX EY) as (_ & _ & Ew).
  unfold compress.
  set (w := fmul K _ (fsq K _)) in *.
  assert (w0 : w = 0) by (apply canon_zero; [apply fmod_canon | rewrite Ew, HW; ring]).
  rewrite w0.
  (* SQRT_RATIO_M1(1, 0) returns 0 *)
  assert (I0 : snd (sqrt_ratio_m1 K 1 0) = 0).
  { destruct (sqrt_ratio_snd K 1 0) as [C _]. apply canon_zero; [exact C|].
    unfold sqrt_ratio_m1. cbn [snd].
    match goal with |- F (fabs K ?t) = _ => assert (T0 : F t = f0) end.
    { match goal with |- F (if ?c then _ else _) = _ => destruct c end; unfold fsq; rewrite !F_fmul, F_0; ring. }
    unfold fabs. destruct (fis_neg _); [rewrite F_fneg, T0; ring | exact T0]. }
  destruct (sqrt_ratio_m1 K 1 0) as [ws I]. cbn [snd] in I0. subst I.
  (* so the denominator den_inv vanishes, and the encoder returns |0| = 0 *)
  match goal with |- le_fixed 32 (fabs K (fmul K ?d _)) = _ => assert (Dz : F d = f0) end.
  { match goal with |- F (if ?c then _ else _) = _ => destruct c end; rewrite !F_fmul, F_0; ring. }
  rewrite (canon_zero (fmul K _ _) (fmod_canon K _)); [reflexivity | rewrite F_fmul, Dz; ring].
Qed.

(* the points on which ENCODE is known to depend on the curve point only: the degenerate ones and those on which the
   encoder's inverse square root exists — everything DECODE returns *)
Definition encodable (A : Fp * Fp) : Prop := let '(x, y) := A in W1 x y = f0 \/ sq_ok (x, y).

Theorem compress_aff K P Q : valid P -> valid Q -> aff P = aff Q -> encodable (aff P) -> compress K P = compress K Q.
Proof.
  intros VP VQ E H. unfold encodable in H.
  pose proof (compress_spec K P VP) as SP. pose proof (compress_spec K Q VQ) as SQ.
  pose proof (compress_degenerate K P VP) as DP. pose proof (compress_degenerate K Q VQ) as DQ.
  rewrite <- E in SQ, DQ. destruct (aff P) as [x y].
  destruct H as [H0|Hs].
  - rewrite (DP H0), (DQ H0). reflexivity.
  - destruct (SP Hs) as (s1 & -> & C1 & E1 & Q1). destruct (SQ Hs) as (s2 & -> & C2 & E2 & Q2).
    f_equal. apply even_canon_unique; try assumption.
    apply (fm_cancel_r _ _ (W1 x y) (W1_sq_nz x y Hs)). rewrite Q1, Q2. reflexivity.
Qed.

Lemma decode_s_sq K s P : decode_s K s = Some P -> encodable (aff P).
Proof.
  intro D. unfold encodable. destruct (decode_s_run K s P D) as (I & x & y & -> & _ & _ & _ & Yn & _ & H & Ex2 & Ey).
  rewrite aff_z1.
  destruct (F_dec (F s) f0) as [S0|Sn].
  - left. unfold W1. rewrite (alg_X_z _ _ _ Ex2 S0). ring.
  - right. exact (alg_sq_ok (F s) (F I) (F x) (F y) H Ex2 Ey Sn Yn).
Qed.

Lemma decompress_sq K bs P : decompress K bs = Some P -> encodable (aff P).
Proof. intro D. destruct (decompress_inv K bs P D) as (_ & _ & _ & Ds). exact (decode_s_sq K _ P Ds). Qed.
