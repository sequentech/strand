(* Proofs/PrimeCerts.v — primality certificates checked by the kernel (Base/Pocklington.v):
   * the 62-bit execution parameter set is a safe-prime group UNCONDITIONALLY (q from three prime factors of
     q-1 below 2000, certified by trial division, p = 2q+1 from q);
   * for the shipped 2048-bit constants [prime p2048] FOLLOWS from [prime q2048] (Pocklington step with F = q,
     witness g2048: g^(p-1) = (g^q)^2 = 1 by ZInst.g2048_order, and gcd(g^2 - 1, p) = 1); [prime q2048] is the one named hypothesis of
     C15_P2048_safe_prime_from_q;
   * the order l of the ristretto255 / Ed25519 group and the field characteristic 2^255 - 19 are prime
     ([ell_prime], [fp_prime], by a certificate chain).
   The ristretto and Edwards files need only the last part, and through this file depend on the regenerated 2048-bit
   constants of the second as well. *)
From Coq Require Import ZArith Znumtheory List Lia.
From Strand Require Import Base.ZUtil Base.Pocklington Base.FastArith Generated.Constants
  Model.Exec Model.Params2048 Proofs.ZLaws Proofs.ZInst.
Import ListNotations.
Open Scope Z_scope.

Definition q62 : Z := 1702182322940790683.
Definition p62 : Z := 3404364645881581367.

(* q62 from three of the prime factors of q62 - 1 = 2 * 293 * 641 * 1153 * 1193 * 1733 * 1901, whose product
   exceeds sqrt q62; p62 = 2 q62 + 1 from q62 *)
Definition chain62 : list (Z * list (Z * Z)) := [
  (q62, [(1193, 2); (1733, 2); (1901, 2)]);
  (p62, [(q62, 2)])
].

Lemma chain62_prime : forall n, In n (map fst chain62) -> prime n.
Proof. apply (chain_checkb_prime powm chain62 powm_spec). vm_compute. reflexivity. Qed.

Theorem q62_prime : prime q62.
Proof. apply chain62_prime. left. reflexivity. Qed.

Theorem p62_prime : prime p62.
Proof. apply chain62_prime. right. left. reflexivity. Qed.

Theorem P62_safe_prime : SafePrime (mkP p62).
Proof.
  constructor.
  - (* sp_good *) constructor.
    + (* gp_q: 1 < q *) vm_compute. reflexivity.
    + (* gp_p: 1 < p *) vm_compute. reflexivity.
    + (* gp_g: the generator is a member *) apply memberb_spec; [vm_compute; reflexivity|]. vm_compute. reflexivity.
  - exact p62_prime.
  - exact q62_prime.
  - (* sp_rel: p = 2 q + 1 *) vm_compute. reflexivity.
  - (* sp_odd: q is odd *) vm_compute. reflexivity.
  - (* sp_g1: g <> 1 *) vm_compute. discriminate.
  - (* sp_cof: the cofactor is 2 *) vm_compute. reflexivity.
Qed.
Print Assumptions P62_safe_prime.

Theorem p2048_prime_from_q : prime q2048 -> prime p2048.
Proof.
  (* the generator is its own Pocklington witness: g^(2q) = (g^q)^2 = 1 by g2048_order *)
  intro Hq. assert (2 < q2048) as Q2 by (vm_compute; reflexivity).
  rewrite p2048_safe_shape. apply (pock_safe_prime q2048 g2048 Hq Q2).
  - pose proof g2048_order as O. rewrite powm_spec, p2048_safe_shape in O by (vm_compute; discriminate).
    replace (2 * q2048) with (q2048 + q2048) at 1 by lia.
    rewrite Z.pow_add_r, Z.mul_mod, O by lia. apply Z.mod_1_l. lia.
  - (* binary Z is slow even for this: square and gcd over BigN *)
    rewrite <- (sq_powm_spec g2048 2), <- fast_gcd_ok by lia. vm_compute. reflexivity.
Qed.
Print Assumptions p2048_prime_from_q.

Theorem safe_P2048_from_q : prime q2048 -> SafePrime P2048.
Proof. intro Hq. apply safe_P2048; [apply p2048_prime_from_q|]; exact Hq. Qed.
Print Assumptions safe_P2048_from_q.

(* Pocklington certificate chain (generated by a sympy script — untrusted, the kernel checks every line with
   chain_checkb) for the order l = 2^252 + 27742317777372353535851937790883648493 of the ristretto255 / Ed25519
   prime-order group and for the field characteristic 2^255 - 19. An entry (N, [(r, a); ...]) certifies N from prime
   factors r of N - 1, each with its witness a; every r is below 2^16 or the N of an earlier entry. *)
From Strand Require Import Model.Ristretto.

Definition chain25519 : list (Z * list (Z * Z)) := [
  (531581, [(3797, 2)]);
  (1257559732178653, [(531581, 2); (23, 2); (7, 2)]);
  (4434155615661930479, [(1257559732178653, 2)]);
  (172054593956031949258510691, [(4434155615661930479, 2)]);
  (19757330305831588566944191468367130476339, [(172054593956031949258510691, 2)]);
  (276602624281642239937218680557139826668747, [(19757330305831588566944191468367130476339, 2)]);
  (7237005577332262213973186563042994240857116359379907606001950938285454250989, [(276602624281642239937218680557139826668747, 2)]);
  (8574133, [(103, 2); (7, 2); (3, 2); (2, 2)]);
  (1919519569386763, [(8574133, 2); (127, 2)]);
  (75707, [(37853, 2)]);
  (75445702479781427272750846543864801, [(1919519569386763, 2); (75707, 2)]);
  (132049, [(131, 2); (7, 2)]);
  (74058212732561358302231226437062788676166966415465897661863160754340907, [(75445702479781427272750846543864801, 2); (132049, 2)]);
  (57896044618658097711785492504343953926634992332820282019728792003956564819949, [(74058212732561358302231226437062788676166966415465897661863160754340907, 2)])
].

Lemma chain25519_prime : forall n, In n (map fst chain25519) -> prime n.
Proof. apply (chain_checkb_prime sq_powm chain25519 sq_powm_spec). vm_compute. reflexivity. Qed.

Theorem ell_prime : prime ell.
Proof. apply chain25519_prime. vm_compute. tauto. Qed.
Print Assumptions ell_prime.

Theorem fp_prime : prime fp.
Proof. apply chain25519_prime. vm_compute. tauto. Qed.
Print Assumptions fp_prime.

Theorem ell_fp_values : ell = 2 ^ 252 + 27742317777372353535851937790883648493 /\ fp = 2 ^ 255 - 19.
Proof. vm_compute. split; reflexivity. Qed.
