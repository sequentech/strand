(* Proofs/Laws.v — what the protocol proofs need from a backend: the laws of a commutative group of
   exponent q on the members, stated for the code's own operations (unreduced `mul` + `modp`, `invp`
   that may panic, `emod_pow`), and the exponent operations as integers modulo q. Junk values (non
   members) are allowed to exist in the carrier; every law is conditional on membership. *)
From Coq Require Import ZArith Lia.
From Strand Require Import Base.Poly Model.Outcome Model.Backend.
Open Scope Z_scope.

Section Laws.
  Variable B : Backend.
  Variable mem : E B -> Prop.
  Notation q := (b_q B).
  Notation mulp := (b_mulp B).
  Notation pow := (b_pow B).
  Notation one := (b_one B).

  (* left free: b_xsub (no protocol function of the model calls it); b_xinvq, b_sub_mod, b_from_u64 (ThresholdP
     assumes what it needs of them as section hypotheses); the encodings b_ser_e, b_ser_x (premises in TranscriptP) *)
  Record Laws : Prop := {
    q_gt1 : 1 < q;
    mem_one : mem one;
    mem_gen : mem (b_gen B);
    mem_mulp : forall a b, mem a -> mem b -> mem (mulp a b);
    modp_mem : forall a, mem a -> b_modp B a = a;
    modp_mul_l : forall a b, b_modp B (b_mul B (b_modp B a) b) = b_modp B (b_mul B a b);
    modp_mul_r : forall a b, b_modp B (b_mul B a (b_modp B b)) = b_modp B (b_mul B a b);
    mulp_comm : forall a b, mem a -> mem b -> mulp a b = mulp b a;
    mulp_assoc : forall a b c, mem a -> mem b -> mem c -> mulp (mulp a b) c = mulp a (mulp b c);
    mulp_one_l : forall a, mem a -> mulp one a = a;
    invp_ok : forall a, mem a -> exists a', b_invp B a = Ok a' /\ mem a' /\ mulp a a' = one;
    pow_mem : forall a x, mem a -> 0 <= x -> mem (pow a x);
    pow_0 : forall a, mem a -> pow a 0 = one;
    pow_1 : forall a, mem a -> pow a 1 = a;
    pow_one : forall x, 0 <= x -> pow one x = one;
    pow_add : forall a x y, mem a -> 0 <= x -> 0 <= y -> pow a (x + y) = mulp (pow a x) (pow a y);
    pow_mul : forall a x y, mem a -> 0 <= x -> 0 <= y -> pow (pow a x) y = pow a (x * y);
    pow_mulp : forall a b x, mem a -> mem b -> 0 <= x -> pow (mulp a b) x = mulp (pow a x) (pow b x);
    pow_q : forall a, mem a -> pow a q = one;
    eqb_spec : forall a b, mem a -> mem b -> (b_eqb B a b = true <-> a = b);
    xadd_ok : forall x y, 0 <= x -> 0 <= y -> 0 <= b_xadd B x y /\ b_xadd B x y mod q = (x + y) mod q;
    xmul_ok : forall x y, 0 <= x -> 0 <= y -> 0 <= b_xmul B x y /\ b_xmul B x y mod q = (x * y) mod q;
    xmodq_ok : forall x, 0 <= x -> b_xmodq B x = x mod q;
    hash_range : forall bs, 0 <= b_hash_to_exp B bs < q
  }.

  Hypothesis L : Laws.

  Lemma gpow_mem x : 0 <= x -> mem (b_gpow B x).
  Proof. intro Hx. apply (pow_mem L); [apply (mem_gen L)|exact Hx]. Qed.

  Lemma mulp_one_r a : mem a -> mulp a one = a.
  Proof. intro Ha. rewrite (mulp_comm L) by (auto using (mem_one L)). apply (mulp_one_l L); exact Ha. Qed.

  Lemma pow_mod a x : mem a -> 0 <= x -> pow a (x mod q) = pow a x.
  Proof.
    intros Ha Hx. pose proof (q_gt1 L) as Hq.
    rewrite (Z.div_mod x q) at 2 by lia.
    assert (0 <= x / q) by (apply Z.div_pos; lia).
    assert (0 <= x mod q) by (apply Z.mod_pos_bound; lia).
    rewrite (pow_add L) by (auto; nia).
    rewrite <- (pow_mul L) by (auto; lia).
    rewrite (pow_q L) by exact Ha. rewrite (pow_one L) by lia.
    rewrite (mulp_one_l L); [reflexivity|]. apply (pow_mem L); auto.
  Qed.

  Lemma pow_congr a x y : mem a -> 0 <= x -> 0 <= y -> eqm q x y -> pow a x = pow a y.
  Proof. intros Ha Hx Hy E. unfold eqm in E. rewrite <- (pow_mod a x), <- (pow_mod a y) by auto. now rewrite E. Qed.

  Lemma gpow_add x y : 0 <= x -> 0 <= y -> mulp (b_gpow B x) (b_gpow B y) = b_gpow B (x + y).
  Proof. intros Hx Hy. symmetry. apply (pow_add L); [apply (mem_gen L)|assumption..]. Qed.

  Lemma gpow_pow x y : 0 <= x -> 0 <= y -> pow (b_gpow B x) y = b_gpow B (x * y).
  Proof. intros Hx Hy. apply (pow_mul L); [apply (mem_gen L)|assumption..]. Qed.

  Lemma gpow_congr x y : 0 <= x -> 0 <= y -> eqm q x y -> b_gpow B x = b_gpow B y.
  Proof. intros Hx Hy E. apply pow_congr; [apply (mem_gen L)|assumption..]. Qed.

  (* the code's exponents are non-negative integers that stand for residues mod q:
     [rep a a'] says that the value [a] held by the code stands for the integer [a'] *)
  Definition rep (a a' : Z) : Prop := 0 <= a /\ eqm q a a'.

  Lemma rep_refl a : 0 <= a -> rep a a.
  Proof. intro Ha. split; [exact Ha|reflexivity]. Qed.

  Lemma rep_eqm {a a' a''} : rep a a' -> eqm q a' a'' -> rep a a''.
  Proof. intros [Ha E] E'. split; [exact Ha|]. rewrite E. exact E'. Qed.

  Lemma rep_xadd {a a' b b'} : rep a a' -> rep b b' -> rep (b_xadd B a b) (a' + b').
  Proof.
    intros [Ha Ea] [Hb Eb]. destruct (xadd_ok L a b Ha Hb) as [H0 E].
    split; [exact H0|]. change (eqm q (b_xadd B a b) (a + b)) in E. rewrite E, Ea, Eb. reflexivity.
  Qed.

  Lemma rep_xmul {a a' b b'} : rep a a' -> rep b b' -> rep (b_xmul B a b) (a' * b').
  Proof.
    intros [Ha Ea] [Hb Eb]. destruct (xmul_ok L a b Ha Hb) as [H0 E].
    split; [exact H0|]. change (eqm q (b_xmul B a b) (a * b)) in E. rewrite E, Ea, Eb. reflexivity.
  Qed.

  Lemma xmodq_range a : 0 <= a -> 0 <= b_xmodq B a < q.
  Proof. intro Ha. rewrite (xmodq_ok L) by exact Ha. apply Z.mod_pos_bound. pose proof (q_gt1 L). lia. Qed.

  Lemma rep_xmodq {a a'} : rep a a' -> rep (b_xmodq B a) a'.
  Proof.
    intros [Ha E]. split; [apply xmodq_range, Ha|]. rewrite (xmodq_ok L) by exact Ha.
    unfold eqm. rewrite Z.mod_mod by (pose proof (q_gt1 L); lia). exact E.
  Qed.

  Lemma rep_umul {a a' b b'} : rep a a' -> rep b b' -> rep (b_xmodq B (b_xmul B a b)) (a' * b').
  Proof. intros Ha Hb. apply rep_xmodq, rep_xmul; assumption. Qed.

  (* a.mul(b).mul(c).modp() *)
  Lemma modp_mul3 a b c :
    b_modp B (b_mul B (b_mul B a b) c) = mulp (mulp a b) c.
  Proof. unfold b_mulp. now rewrite (modp_mul_l L). Qed.

  Lemma mulp_cancel_l a b c : mem a -> mem b -> mem c -> mulp a b = mulp a c -> b = c.
  Proof.
    intros Ha Hb Hc E. destruct (invp_ok L a Ha) as (a' & _ & Ha' & Hinv).
    assert (mulp a' (mulp a b) = mulp a' (mulp a c)) as E2 by now rewrite E.
    rewrite <- !(mulp_assoc L) in E2 by auto.
    rewrite (mulp_comm L a' a) in E2 by auto. rewrite Hinv in E2.
    now rewrite !(mulp_one_l L) in E2 by auto.
  Qed.

  Lemma mulp_unit_iff m y : mem m -> mem y -> (mulp m y = m <-> y = one).
  Proof.
    intros Hm Hy. split; intros E.
    - apply (mulp_cancel_l m); [assumption|assumption|apply (mem_one L)|].
      rewrite E. symmetry. apply mulp_one_r; exact Hm.
    - subst y. apply mulp_one_r; exact Hm.
  Qed.

  Lemma mulp_swap a b c : mem a -> mem b -> mem c -> mulp a (mulp b c) = mulp b (mulp a c).
  Proof.
    intros Ha Hb Hc. rewrite <- !(mulp_assoc L) by assumption.
    now rewrite (mulp_comm L a b) by assumption.
  Qed.

  Lemma mulp4 a b c d : mem a -> mem b -> mem c -> mem d ->
    mulp (mulp a b) (mulp c d) = mulp (mulp a c) (mulp b d).
  Proof.
    intros Ha Hb Hc Hd. rewrite !(mulp_assoc L) by auto using (mem_mulp L).
    f_equal. apply mulp_swap; assumption.
  Qed.

  Lemma mulp_inv_r a b b' : mem a -> mem b -> mem b' -> mulp b b' = one -> mulp (mulp a b) b' = a.
  Proof. intros Ha Hb Hb' E. rewrite (mulp_assoc L) by assumption. rewrite E. now apply mulp_one_r. Qed.

  Lemma pow_inv_cancel a a' c : mem a -> mem a' -> 0 <= c -> mulp a a' = one ->
    mulp (pow a c) (pow a' c) = one.
  Proof. intros Ha Ha' Hc E. rewrite <- (pow_mulp L) by assumption. rewrite E. now apply (pow_one L). Qed.
End Laws.

Arguments Laws B mem : clear implicits.

(* side conditions of the laws, for a context that holds [L : Laws B mem]: membership of products and powers of
   members, and non-negative exponents *)
Ltac memt :=
  repeat match goal with
    | L : Laws ?B ?mem |- ?mem (b_mulp _ _ _) => apply (mem_mulp B mem L)
    | L : Laws ?B ?mem |- ?mem (b_pow _ _ _) => apply (pow_mem B mem L)
    | L : Laws ?B ?mem |- ?mem (b_gpow _ _) => apply (gpow_mem B mem L)
    | L : Laws ?B ?mem |- ?mem (b_one _) => apply (mem_one B mem L)
    | L : Laws ?B ?mem |- ?mem (b_gen _) => apply (mem_gen B mem L)
    | |- 0 <= _ => first [assumption | lia | nia]
    | |- _ => assumption
    end.
