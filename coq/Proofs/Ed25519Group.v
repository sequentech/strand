(* Proofs/Ed25519Group.v — the algebraic core of Ed25519 completeness on the executable model, from the proved group
   law (Base/Edwards.v, Proofs/RistrettoGroup.v): for every secret scalar a, nonce r and challenge k, with
   A = [a]B, R = [r]B and S = (r + k a) mod l, the point  R - ([k](-A) + [S]B)  that both verification rules examine is
   the neutral element, so the cofactored (ZIP-215 / ed25519-zebra) test  [8](...) = identity  of the model succeeds.
   What this does NOT cover is the byte layer of a signature (that decompress inverts compress, i.e. the square-root
   computation): the statement is about points, not about 64-byte strings. *)
From Coq Require Import ZArith Bool.
From Strand Require Import Base.ZUtil Model.Ristretto Model.RistrettoFast Model.Ed25519 Proofs.RistrettoGroup.
Open Scope Z_scope.

(* the identity test of the model (X = 0 and Y = Z) recognises every point with canonical coordinates whose affine image
   is the neutral element; sums have such coordinates *)
Lemma is_identity_canon P : valid P -> aff P = eid -> canon (px P) -> canon (py P) -> canon (pz P) ->
  ed_is_identity P = true.
Proof.
  intros V A Cx Cy Cz. destruct (valid_coords P V) as (x & y & E & _ & _ & EX & EY & _).
  rewrite A in E. injection E as <- <-.
  assert (Ex : F (px P) = f0) by (rewrite EX; ring).
  assert (Ey : F (py P) = F (pz P)) by (rewrite EY; ring).
  unfold ed_is_identity. apply andb_true_iff. split; apply Z.eqb_eq.
  - rewrite Cx, Ex. reflexivity.
  - rewrite Cy, Cz, Ey. reflexivity.
Qed.

Lemma pt_add_canon K P1 P2 :
  canon (px (pt_add K P1 P2)) /\ canon (py (pt_add K P1 P2)) /\ canon (pz (pt_add K P1 P2)).
Proof. unfold pt_add. cbn [px py pz]. repeat split; apply fmod_canon. Qed.

Section EdEq.
  Variable K : Kernel.
  Variable PM : PMul.
  Notation G := (aff (pt_base K)).

  (* the point R' = [k](-A) + [S]B that the dalek rule re-encodes is [r]G; A is ANY valid point whose affine image is
     [a]G (e.g. decoded from bytes) *)
  Lemma ed_rprime_aff (A : point) a r k : 0 <= a -> 0 <= r -> 0 <= k ->
    valid A -> aff A = nmul (Z.to_nat a) G ->
    let s := sc_add K r (sc_mul K k a) in
    valid (ed_rprime K PM A k s) /\ aff (ed_rprime K PM A k s) = nmul (Z.to_nat r) G.
  Proof.
    intros Ha Hr Hk VA AA. cbv zeta. unfold ed_rprime. rewrite !(pm_pt_mul K).
    split; [auto with validity|].
    pose proof (ord_l_base K) as OG. pose proof (proj1 OG) as CG.
    rewrite aff_add, 2 aff_mul, aff_neg, AA by auto with validity.
    rewrite (nmul_sc_add K G r (sc_mul K k a) OG Hr (proj1 (smod_range K _))), (nmul_sc_mul K G k a OG Hk Ha).
    set (X := nmul (Z.to_nat a) G). assert (CX : onc X) by (apply E_nmul_onc; exact CG).
    rewrite (E_nmul_eneg _ _ CX).
    set (Y := nmul (Z.to_nat k) X). assert (CY : onc Y) by (apply E_nmul_onc; exact CX).
    set (Rr := nmul (Z.to_nat r) G). assert (CR : onc Rr) by (apply E_nmul_onc; exact CG).
    rewrite (E_comm (eneg Y) (eadd Rr Y)). apply E_cancel_r; assumption.
  Qed.

  Theorem ed_equation_complete_gen (A R : point) a r k : 0 <= a -> 0 <= r -> 0 <= k ->
    valid A -> valid R -> aff A = nmul (Z.to_nat a) G -> aff R = nmul (Z.to_nat r) G ->
    let s := sc_add K r (sc_mul K k a) in
    ed_is_identity (ed_mul8 K (pt_add K R (pt_neg K (ed_rprime K PM A k s)))) = true.
  Proof.
    intros Ha Hr Hk VA VR AA AR. cbv zeta.
    destruct (ed_rprime_aff A a r k Ha Hr Hk VA AA) as [Vrp Arp]. cbv zeta in Vrp, Arp.
    set (d := pt_add K R (pt_neg K _)).
    assert (Vd : valid d) by (unfold d; auto with validity).
    assert (Ad : aff d = eid).
    { unfold d. rewrite aff_add, aff_neg, Arp, AR by auto with validity. apply E_neg_r, E_nmul_onc, valid_onc, valid_base. }
    clearbody d. unfold ed_mul8. apply is_identity_canon; [auto with validity | | apply pt_add_canon ..].
    rewrite !aff_add, Ad, !E_id_l by auto with validity. reflexivity.
  Qed.

  Theorem ed_equation_complete a r k : 0 <= a -> 0 <= r -> 0 <= k ->
    let B := pt_base K in
    let A := pm_mul PM a B in
    let R := pm_mul PM r B in
    let s := sc_add K r (sc_mul K k a) in
    ed_is_identity (ed_mul8 K (pt_add K R (pt_neg K (ed_rprime K PM A k s)))) = true.
  Proof.
    intros Ha Hr Hk. cbv zeta.
    destruct (pm_correct PM a (pt_base K) (valid_base K)) as [VA AA].
    destruct (pm_correct PM r (pt_base K) (valid_base K)) as [VR AR].
    exact (ed_equation_complete_gen _ _ a r k Ha Hr Hk VA VR AA AR).
  Qed.
End EdEq.
