(* Proofs/ShuffleRel.v — (A) the Fisher-Yates sampler of Model/Rng.v returns a permutation of 0..n-1
   whatever (well-formed) byte stream it is fed; (B) the relation computed by apply_permutation
   (output k = input perm[k] re-encrypted with that input's exponent), its totality on valid
   permutations, and preservation of the multiset of plaintexts by one shuffle and by any cascade. *)
From Coq Require Import ZArith List Lia Permutation.
From Strand Require Import Model.Outcome Model.Codec Model.Rng Proofs.ListAlg.
From Strand Require Proofs.CodecP.
Import ListNotations.
Open Scope Z_scope.

Definition bytes_ok (s : bytes) : Prop := forall b, In b s -> 0 <= b < 256.

Lemma take_n_bytes n s b rest : bytes_ok s -> take_n n s = Ok (b, rest) ->
  bytes_ok b /\ bytes_ok rest /\ length b = n.
Proof.
  intros Hs H. apply CodecP.take_n_inv in H as [-> Lb].
  split; [|split; [|exact Lb]]; intros x Hx; apply Hs, in_or_app; [left|right]; exact Hx.
Qed.

(* only 0 < ubound is needed for the range: hi = v*ubound / 2^32 with 0 <= v < 2^32 *)
Lemma gen_index_ok fuel ubound s j rest : bytes_ok s ->
  gen_index fuel ubound s = Ok (j, rest) -> bytes_ok rest /\ (0 < ubound -> 0 <= j < ubound).
Proof.
  revert s. induction fuel as [|f IH]; intros s Hs H; cbn [gen_index] in H; [discriminate|].
  destruct (take_n 4 s) as [[b r]| |] eqn:Et; try discriminate.
  destruct (take_n_bytes _ _ _ _ Hs Et) as (Hb & Hr & Lb).
  cbv zeta in H.
  destruct (_ <=? _) in H; [|apply (IH r Hr H)].
  injection H as <- <-. split; [exact Hr|]. intros Hu.
  pose proof (CodecP.le_int_bound b (proj2 (Forall_forall _ _) Hb)) as Hv. rewrite Lb in Hv.
  change (256 ^ Z.of_nat 4) with (2 ^ 32) in Hv.
  assert (H32 : 0 < 2 ^ 32) by (apply Z.pow_pos_nonneg; lia).
  split.
  - apply Z.div_pos; [nia|exact H32].
  - apply Z.div_lt_upper_bound; [exact H32|]. nia.
Qed.

Lemma gen_index_rest fuel ubound s j rest : bytes_ok s ->
  gen_index fuel ubound s = Ok (j, rest) -> bytes_ok rest.
Proof. intros Hs H. apply (gen_index_ok _ _ _ _ _ Hs H). Qed.

Lemma gen_index_range_gen fuel ubound s j rest : 0 < ubound -> bytes_ok s ->
  gen_index fuel ubound s = Ok (j, rest) -> 0 <= j < ubound.
Proof. intros Hu Hs H. apply (gen_index_ok _ _ _ _ _ Hs H). exact Hu. Qed.

Lemma gen_index_range : forall fuel ubound s j rest, 0 < ubound <= 2 ^ 32 ->
  (forall b, In b s -> 0 <= b < 256) ->
  gen_index fuel ubound s = Ok (j, rest) -> 0 <= j < ubound.
Proof. intros fuel ubound s j rest [Hu _] Hs H. eapply gen_index_range_gen; eauto. Qed.

Print Assumptions gen_index_range.

Definition upd (l : list Z) (k : nat) (x : Z) : list Z := firstn k l ++ [x] ++ skipn (S k) l.

Lemma upd_cons_S a l k x : upd (a :: l) (S k) x = a :: upd l k x.
Proof. reflexivity. Qed.

Lemma upd_length l : forall k x, (k < length l)%nat -> length (upd l k x) = length l.
Proof.
  induction l as [|a l IH]; intros k x Hk; cbn [length] in *; [lia|].
  destruct k as [|k]; [reflexivity|]. rewrite upd_cons_S. cbn [length]. rewrite IH by lia. reflexivity.
Qed.

Lemma upd_nth_same l : forall k x, (k < length l)%nat -> nth k (upd l k x) 0 = x.
Proof.
  induction l as [|a l IH]; intros k x Hk; cbn [length] in *; [lia|].
  destruct k as [|k]; [reflexivity|]. rewrite upd_cons_S. cbn [nth]. apply IH. lia.
Qed.

Lemma upd_nth_other l : forall k j x, (k < length l)%nat -> j <> k -> nth j (upd l k x) 0 = nth j l 0.
Proof.
  induction l as [|a l IH]; intros k j x Hk Hj; cbn [length] in *; [lia|].
  destruct k as [|k].
  - destruct j as [|j]; [congruence|]. reflexivity.
  - rewrite upd_cons_S. destruct j as [|j]; [reflexivity|]. cbn [nth]. apply IH; lia.
Qed.

Lemma upd_perm l : forall k x, (k < length l)%nat -> Permutation (nth k l 0 :: upd l k x) (x :: l).
Proof.
  induction l as [|a l IH]; intros k x Hk; cbn [length] in *; [lia|].
  destruct k as [|k].
  - cbn. apply perm_swap.
  - rewrite upd_cons_S. cbn [nth].
    eapply perm_trans; [apply perm_swap|].
    eapply perm_trans; [apply perm_skip; apply IH; lia|]. apply perm_swap.
Qed.

Lemma swap_nth_upd l i j : swap_nth l i j = upd (upd l i (nth j l 0)) j (nth i l 0).
Proof. reflexivity. Qed.

Lemma swap_nth_length l i j : (i < length l)%nat -> (j < length l)%nat -> length (swap_nth l i j) = length l.
Proof.
  intros Hi Hj. rewrite swap_nth_upd. rewrite upd_length; rewrite upd_length by exact Hi; [reflexivity|exact Hj].
Qed.

Lemma swap_nth_perm l i j : (i < length l)%nat -> (j < length l)%nat -> Permutation (swap_nth l i j) l.
Proof.
  intros Hi Hj. rewrite swap_nth_upd.
  set (a := nth i l 0). set (b := nth j l 0). set (l1 := upd l i b).
  assert (L1 : length l1 = length l) by (apply upd_length; exact Hi).
  assert (Hb : nth j l1 0 = b).
  { unfold l1. destruct (Nat.eq_dec j i) as [->|Hne].
    - apply upd_nth_same; exact Hi.
    - rewrite upd_nth_other by assumption. reflexivity. }
  apply (Permutation_cons_inv (a := b)).
  rewrite <- Hb at 1.
  eapply perm_trans; [apply upd_perm; rewrite L1; exact Hj|].
  unfold l1, a. apply upd_perm. exact Hi.
Qed.

Lemma shuffle_from_perm : forall i l s l' rest,
  (i < length l)%nat \/ i = O -> bytes_ok s ->
  shuffle_from i l s = Ok (l', rest) -> Permutation l' l.
Proof.
  induction i as [|i IH]; intros l s l' rest Hi Hs H.
  - cbn [shuffle_from] in H. injection H as <- _. apply Permutation_refl.
  - destruct Hi as [Hi|Hi]; [|discriminate].
    cbn [shuffle_from] in H.
    destruct (gen_index RNG_FUEL (Z.of_nat (S (S i))) s) as [[j r]| |] eqn:Eg; try discriminate.
    destruct (gen_index_ok _ _ _ _ _ Hs Eg) as [Hr Hj]. specialize (Hj ltac:(lia)).
    assert (Hj' : (Z.to_nat j < length l)%nat) by lia.
    eapply perm_trans; [|apply (swap_nth_perm l (S i) (Z.to_nat j) Hi Hj')].
    apply (IH _ r l' rest); [|exact Hr|exact H].
    left. rewrite swap_nth_length by assumption. lia.
Qed.

Theorem gen_permutation_is_perm : forall (n : nat) (s : bytes) (l : list Z) (rest : bytes),
  (forall b, In b s -> 0 <= b < 256) ->
  gen_permutation n s = Ok (l, rest) -> Permutation l (iota n).
Proof.
  intros n s l rest Hs H. unfold gen_permutation in H. fold (iota n) in H.
  apply (shuffle_from_perm _ _ _ _ _) in H; [exact H| |exact Hs].
  rewrite iota_length. destruct n as [|n]; [right; reflexivity|left; cbn; lia].
Qed.

Print Assumptions gen_permutation_is_perm.

From Strand Require Import Model.Backend Model.Zkp Model.Shuffler Proofs.Laws Proofs.ElgamalP Proofs.ShuffleP.

Lemma mapM_cons_ok {A C} (f : A -> outcome C) x l ds : mapM f (x :: l) = Ok ds ->
  exists y ys, f x = Ok y /\ mapM f l = Ok ys /\ ds = y :: ys.
Proof.
  cbn [mapM]. destruct (f x) as [y| |]; try discriminate.
  destruct (mapM f l) as [ys| |]; try discriminate.
  intros H. injection H as <-. eauto.
Qed.

Lemma mapM_cons_rw {A C} (f : A -> outcome C) x l y ys : f x = Ok y -> mapM f l = Ok ys ->
  mapM f (x :: l) = Ok (y :: ys).
Proof. intros E1 E2. cbn [mapM]. rewrite E1, E2. reflexivity. Qed.

Lemma mapM_perm {A C} (f : A -> outcome C) l l' : Permutation l l' ->
  forall ds, mapM f l = Ok ds -> exists ds', mapM f l' = Ok ds' /\ Permutation ds' ds.
Proof.
  induction 1 as [|x l l' HP IH|x y l|l l' l'' HP1 IH1 HP2 IH2]; intros ds H.
  - exists ds. split; [exact H|apply Permutation_refl].
  - apply mapM_cons_ok in H. destruct H as (y & ys & Ex & El & ->).
    destruct (IH ys El) as (ys' & El' & HP').
    exists (y :: ys'). split; [apply mapM_cons_rw; assumption|apply perm_skip; exact HP'].
  - apply mapM_cons_ok in H. destruct H as (b & ys & Ey & El & ->).
    apply mapM_cons_ok in El. destruct El as (a & zs & Ex & El & ->).
    exists (a :: b :: zs). split; [|apply perm_swap].
    apply mapM_cons_rw; [exact Ex|]. apply mapM_cons_rw; assumption.
  - destruct (IH1 ds H) as (ds1 & E1 & P1). destruct (IH2 ds1 E1) as (ds2 & E2 & P2).
    exists ds2. split; [exact E2|]. eapply perm_trans; eassumption.
Qed.

Section Rel.
  Variable B : Backend.
  Variable mem : E B -> Prop.
  Hypothesis L : Laws B mem.
  Notation mulp := (b_mulp B).
  Notation pow := (b_pow B).
  Notation one := (b_one B).

  Definition wf_ct (c : ctext B) : Prop := mem (mhr c) /\ mem (gr c).

  (* the predicate of the same name in ShuffleSpec, for which ShuffleP proves reencf_wf *)
  Lemma wf_ct_eq : wf_ct = ShuffleSpec.wf_ct B mem.
  Proof. reflexivity. Qed.

  Theorem apply_permutation_rel : forall pk perm es rs out rs',
    Permutation perm (iota (length es)) -> length rs = length es ->
    apply_permutation B pk perm es rs = Ok (out, rs') ->
    rs' = rs /\ length out = length es /\
    forall k, (k < length es)%nat ->
      exists i c r, nth_error perm k = Some (Z.of_nat i) /\ nth_error es i = Some c /\ nth_error rs i = Some r /\
                    nth_error out k = Some (reenc B pk c r).
  Proof.
    intros pk perm es rs out rs' HP Lr H.
    destruct (apply_permutation_spec B pk perm es rs out rs' HP Lr H) as [-> ->].
    rewrite combine_pick, map_map. cbn [reencf fst snd].
    pose proof (perm_length _ _ HP) as Lp. pose proof (perm_range _ _ HP) as HR.
    split; [reflexivity|]. split; [rewrite map_length; exact Lp|].
    intros k Hk.
    destruct (nth_error perm k) as [z|] eqn:Ez; [|apply nth_error_None in Ez; lia].
    assert (Hz : in_range (length es) z).
    { rewrite Forall_forall in HR. apply HR. eapply nth_error_In; exact Ez. }
    unfold in_range in Hz.
    exists (Z.to_nat z), (nth (Z.to_nat z) es (de B)), (nth (Z.to_nat z) rs 0).
    split; [rewrite Z2Nat.id by lia; reflexivity|].
    split; [apply nth_error_nth'; lia|].
    split; [apply nth_error_nth'; lia|].
    exact (map_nth_error (fun i : Z => reenc B pk (nth (Z.to_nat i) es (de B)) (nth (Z.to_nat i) rs 0)) k perm Ez).
  Qed.

  Theorem apply_permutation_ok : forall pk perm es rs,
    Permutation perm (iota (length es)) -> length rs = length es ->
    exists out, apply_permutation B pk perm es rs = Ok (out, rs).
  Proof.
    intros pk perm es rs HP Lr. eexists. apply (apply_permutation_eq B); assumption.
  Qed.

  Lemma reenc_ct_mul pk c r : mem pk -> 0 <= r ->
    reenc B pk c r = ct_mul B c (encrypt_with_randomness B pk one r).
  Proof.
    intros Hpk Hr. unfold reenc, ct_mul. cbn [encrypt_with_randomness mhr gr].
    change (b_modp B (b_mul B one (pow pk r))) with (mulp one (pow pk r)).
    rewrite (mulp_one_l B mem L) by (apply (pow_mem B mem L); assumption).
    reflexivity.
  Qed.

  Lemma decrypt_total sk c : 0 <= sk -> wf_ct c -> exists d, decrypt B sk c = Ok d.
  Proof.
    intros Hsk [Hm Hg]. destruct (decrypt_char B mem L sk c Hm Hg Hsk) as (i & D & _). eauto.
  Qed.

  Theorem decrypt_reenc : forall sk c r d, 0 <= sk -> 0 <= r -> wf_ct c ->
    decrypt B sk c = Ok d -> decrypt B sk (reenc B (pk_of_sk B sk) c r) = Ok d.
  Proof.
    intros sk c r d Hsk Hr [Hm Hg] E.
    assert (Hpk : mem (pk_of_sk B sk)) by (apply (gpow_mem B mem L); exact Hsk).
    destruct (decrypt_sound B mem L sk c d Hm Hg Hsk E) as [Hd _].
    rewrite (reenc_ct_mul _ c r Hpk Hr).
    pose proof (mem_one B mem L) as H1.
    destruct (enc_mem B mem L (pk_of_sk B sk) one r Hpk H1 Hr) as [Hm2 Hg2].
    rewrite (decrypt_ct_mul B mem L sk c _ d one Hm Hg Hm2 Hg2 Hsk E
               (decrypt_encrypt B mem L sk one r Hsk Hr H1)).
    rewrite (mulp_one_r B mem L) by exact Hd. reflexivity.
  Qed.

  Lemma mapM_decrypt_reenc sk cs : 0 <= sk -> Forall wf_ct cs ->
    forall rs, Forall (fun r => 0 <= r) rs -> length rs = length cs ->
    mapM (decrypt B sk) (map (reencf B (pk_of_sk B sk)) (combine cs rs)) = mapM (decrypt B sk) cs.
  Proof.
    intros Hsk. induction 1 as [|c cs Hc Hcs IH]; intros rs Hrs Lr; [reflexivity|].
    destruct rs as [|r rs]; [discriminate|]. inversion Hrs as [|? ? Hr Hrs']; subst.
    cbn [combine map mapM]. unfold reencf at 1. cbn [fst snd].
    destruct (decrypt_total sk c Hsk Hc) as (d & Ed).
    rewrite (decrypt_reenc sk c r d Hsk Hr Hc Ed), Ed.
    rewrite IH by (try assumption; cbn [length] in Lr; lia). reflexivity.
  Qed.

  Theorem shuffle_preserves_plaintexts : forall sk perm es rs out rs' ds,
    0 <= sk -> Forall (fun r => 0 <= r) rs -> Forall wf_ct es ->
    Permutation perm (iota (length es)) -> length rs = length es ->
    apply_permutation B (pk_of_sk B sk) perm es rs = Ok (out, rs') ->
    mapM (decrypt B sk) es = Ok ds ->
    exists ds', mapM (decrypt B sk) out = Ok ds' /\ Permutation ds' ds /\ Forall wf_ct out.
  Proof.
    intros sk perm es rs out rs' ds Hsk Hrs Hes HP Lr H Hd.
    destruct (apply_permutation_spec B _ perm es rs out rs' HP Lr H) as [-> ->].
    pose proof (perm_range _ _ HP) as HR.
    assert (Hpk : mem (pk_of_sk B sk)) by (apply (gpow_mem B mem L); exact Hsk).
    assert (Hes' : Forall wf_ct (pick (de B) es perm)) by (apply pick_Forall; assumption).
    assert (Hrs' : Forall (fun r => 0 <= r) (pick 0 rs perm)) by (apply pick_Forall; [rewrite Lr|]; assumption).
    rewrite (mapM_decrypt_reenc sk _ Hsk Hes' _ Hrs') by (rewrite !pick_length; reflexivity).
    destruct (mapM_perm (decrypt B sk) es (pick (de B) es perm)
                (Permutation_sym (pick_perm (de B) es perm HP)) ds Hd) as (ds' & E' & P').
    exists ds'. split; [exact E'|]. split; [exact P'|].
    rewrite wf_ct_eq in Hes' |- *. exact (reencf_wf B mem L _ _ _ Hpk Hes' Hrs').
  Qed.

  Inductive cascade (pk : E B) : list (ctext B) -> list (ctext B) -> Prop :=
  | cascade_nil : forall es, cascade pk es es
  | cascade_step : forall es perm rs out rs' final,
      Permutation perm (iota (length es)) -> length rs = length es -> Forall (fun r => 0 <= r) rs ->
      apply_permutation B pk perm es rs = Ok (out, rs') ->
      cascade pk out final -> cascade pk es final.

  Theorem cascade_preserves_plaintexts : forall sk es final ds,
    0 <= sk -> Forall wf_ct es -> cascade (pk_of_sk B sk) es final ->
    mapM (decrypt B sk) es = Ok ds ->
    exists ds', mapM (decrypt B sk) final = Ok ds' /\ Permutation ds' ds.
  Proof.
    intros sk es final ds Hsk Hes HC. revert ds Hes.
    induction HC as [es|es perm rs out rs' final HP Lr Hrs Happ HC IH]; intros ds Hes Hd.
    - exists ds. split; [exact Hd|apply Permutation_refl].
    - destruct (shuffle_preserves_plaintexts sk perm es rs out rs' ds Hsk Hrs Hes HP Lr Happ Hd)
        as (ds1 & E1 & P1 & Hout).
      destruct (IH ds1 Hout E1) as (ds' & E' & P').
      exists ds'. split; [exact E'|]. eapply perm_trans; eassumption.
  Qed.
End Rel.

Print Assumptions apply_permutation_rel.
Print Assumptions apply_permutation_ok.
Print Assumptions decrypt_reenc.
Print Assumptions shuffle_preserves_plaintexts.
Print Assumptions cascade_preserves_plaintexts.
