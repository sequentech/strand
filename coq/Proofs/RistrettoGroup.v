(* Proofs/RistrettoGroup.v — the Edwards-curve arithmetic of the executable ristretto255 model
   (Model/Ristretto.v: extended coordinates over GF(2^255-19), unified addition, negation, double-and-add)
   IS the group law of the curve  -x^2 + y^2 = 1 + d x^2 y^2 :  every operation maps valid points to valid
   points and commutes with the affine group law proved in Base/Edwards.v. No hypothesis is left: 2^255-19 is
   prime (Proofs/PrimeCerts.v), d is a non-residue (Euler's criterion, evaluated by the kernel), sqrt(-1)
   squares to -1, and the base point has order dividing l (kernel evaluation of [l]B). The two large evaluations
   (Euler's criterion for d, [l]B) run over BigZ, so the theorems rest on Coq's primitive-integer axioms, and on
   nothing else.
   On top of it: ElGamal round trip, product of ciphertexts, Schnorr / Chaum-Pedersen completeness for the
   ristretto backend record RB of Model/RBackend.v, with results compared by the backend's own equality
   (RFC 9496 4.3.3), without any group-law hypothesis. *)
From Coq Require Import ZArith Lia List Bool Field.
From Strand Require Import Base.ZUtil Base.FastArith Base.ZpField Base.Edwards Model.Outcome Model.Backend Model.Zkp
  Model.Ristretto Model.RistrettoFast Model.RBackend Proofs.PrimeCerts.
Import ListNotations.
Open Scope Z_scope.

Definition Fp : Type := Zp fp.
Definition F (a : Z) : Fp := of_Z fp a.
Definition f0 : Fp := z0 fp.
Definition f1 : Fp := z1 fp.
Definition fa : Fp -> Fp -> Fp := zadd fp.
Definition fm : Fp -> Fp -> Fp := zmul fp.
Definition fs : Fp -> Fp -> Fp := zsub fp.
Definition fo : Fp -> Fp := zopp fp.
Definition fd : Fp -> Fp -> Fp := zdiv fp.
Definition fi : Fp -> Fp := zinv fp.

Lemma Fth : field_theory f0 f1 fa fm fs fo fd fi (@eq Fp).
Proof. exact (Zp_field fp fp_prime). Qed.
Add Field FpField : Fth.

Definition F_dec : forall a b : Fp, {a = b} + {a <> b} := Zp_eq_dec fp.

Definition dF : Fp := F ed_d.
Definition iF : Fp := F sqrt_m1.

Definition half_fp : Z := Eval vm_compute in (fp - 1) / 2.

Lemma fp_gt2 : 2 < fp.  Proof. reflexivity. Qed.

Lemma dF_nonsquare : forall x : Fp, fm x x <> dF.
Proof.
  apply (nonsquare_by_euler fp fp_prime ed_d half_fp).
  - reflexivity.
  - discriminate.
  - vm_compute. discriminate.
  - assert (E : powm ed_d half_fp fp = fp - 1) by (rewrite <- fast_powm_ok; vm_compute; reflexivity).
    rewrite powm_spec in E by discriminate. rewrite E. discriminate.
Qed.

Lemma iF_sq : fm iF iF = fo f1.
Proof. apply Zp_eq. vm_compute. reflexivity. Qed.

Lemma two_nzF : fa f1 f1 <> f0.
Proof. intro H. apply (f_equal (zv fp)) in H. vm_compute in H. discriminate. Qed.

(* every field operation of the model is [fmod] of an integer expression: the reduction Z -> GF(p) absorbs it, for every
   arithmetic kernel. Independence of the kernel is used in two forms: fmod_K ... pt_mul_K, decompress_K
   (Model/RistrettoFast.v) equate the integers computed under any kernel with those under K_ref, which is what carries a
   closed evaluation (fast_pt_mul, K_25519) over to the reference; the F_* lemmas below give the image in GF(p) of each
   operation under any kernel, which is what the algebraic proofs rewrite with. *)
Lemma F_fmod K a : F (fmod K a) = F a.
Proof. rewrite fmod_K. unfold fmod, F. cbn [k_mod K_ref]. apply (of_Z_mod fp fp_prime). Qed.

(* canonical representatives, the integers 0 <= a < p (canon_iff in Proofs/RistrettoDecode.v): what [fmod] returns *)
Definition canon (a : Z) : Prop := a = zv fp (F a).

Lemma fmod_canon K a : canon (fmod K a).
Proof. unfold canon. rewrite F_fmod, fmod_K. reflexivity. Qed.

Lemma F_fmul K a b : F (fmul K a b) = fm (F a) (F b).
Proof. unfold fmul. rewrite F_fmod, k_mul_ok. apply of_Z_mul. Qed.
Lemma F_fadd K a b : F (fadd K a b) = fa (F a) (F b).
Proof. unfold fadd. rewrite F_fmod. apply of_Z_add. Qed.
Lemma F_fsub K a b : F (fsub K a b) = fs (F a) (F b).
Proof. unfold fsub. rewrite F_fmod. apply of_Z_sub. Qed.
Lemma F_fneg K a : F (fneg K a) = fo (F a).
Proof. unfold fneg. rewrite F_fmod. apply (of_Z_opp fp fp_prime). Qed.
Lemma F_0 : F 0 = f0.  Proof. reflexivity. Qed.
Lemma F_1 : F 1 = f1.  Proof. reflexivity. Qed.
Lemma F_2 : F 2 = fa f1 f1.  Proof. apply Zp_eq. vm_compute. reflexivity. Qed.

Lemma fmul_zv K a b : fmul K a b = zv fp (fm (F a) (F b)).
Proof. rewrite <- (F_fmul K). apply fmod_canon. Qed.

Notation onc := (onc Fp f1 fa fm fs dF).
Notation eid := (eid Fp f0 f1).
Notation eneg := (eneg Fp fo).
Notation eadd := (eadd Fp f1 fa fm fs fd dF).
Notation nmul := (nmul Fp f0 f1 fa fm fs fd dF).
Notation pmul := (pmul Fp f1 fa fm fs fd dF).

(* the section of Base/Edwards.v at GF(2^255-19); Definitions, so that [apply] and [rewrite] see closed terms *)
Definition E_assoc := eadd_assoc Fp f0 f1 fa fm fs fo fd fi Fth F_dec dF iF dF_nonsquare iF_sq two_nzF.
Definition E_comm := eadd_comm Fp f0 f1 fa fm fs fo fd fi Fth dF.
Definition E_onc := eadd_onc Fp f0 f1 fa fm fs fo fd fi Fth F_dec dF iF dF_nonsquare iF_sq two_nzF.
Definition E_id_l := eadd_id_l Fp f0 f1 fa fm fs fo fd fi Fth dF.
Definition E_id_r := eadd_id_r Fp f0 f1 fa fm fs fo fd fi Fth dF.
Definition E_neg_r := eadd_neg_r Fp f0 f1 fa fm fs fo fd fi Fth F_dec dF iF dF_nonsquare iF_sq two_nzF.
Definition E_onc_neg := onc_eneg Fp f0 f1 fa fm fs fo fd fi Fth F_dec dF iF iF_sq.
Definition E_onc_id := onc_eid Fp f0 f1 fa fm fs fo fd fi Fth dF.
Definition E_den_p := den_plus_nz Fp f0 f1 fa fm fs fo fd fi Fth F_dec dF iF dF_nonsquare iF_sq two_nzF.
Definition E_den_m := den_minus_nz Fp f0 f1 fa fm fs fo fd fi Fth F_dec dF iF dF_nonsquare iF_sq two_nzF.
Definition E_one_plus_dyy := one_plus_dyy_nz Fp f0 f1 fa fm fs fo fd fi Fth F_dec dF iF dF_nonsquare iF_sq.
Definition E_mul_nz := mul_nz Fp f0 f1 fa fm fs fo fd fi Fth F_dec.
Definition fm_cancel_r := mul_cancel_r Fp f0 f1 fa fm fs fo fd fi Fth.
Definition E_sq_cases := sq_eq_cases Fp f0 f1 fa fm fs fo fd fi Fth F_dec.
Definition E_nmul_onc := nmul_onc Fp f0 f1 fa fm fs fo fd fi Fth F_dec dF iF dF_nonsquare iF_sq two_nzF.
Definition E_nmul_add := nmul_add Fp f0 f1 fa fm fs fo fd fi Fth F_dec dF iF dF_nonsquare iF_sq two_nzF.
Definition E_nmul_mul := nmul_mul Fp f0 f1 fa fm fs fo fd fi Fth F_dec dF iF dF_nonsquare iF_sq two_nzF.
Definition E_nmul_eadd := nmul_eadd Fp f0 f1 fa fm fs fo fd fi Fth F_dec dF iF dF_nonsquare iF_sq two_nzF.
Definition E_nmul_eneg := nmul_eneg Fp f0 f1 fa fm fs fo fd fi Fth F_dec dF iF dF_nonsquare iF_sq two_nzF.
Definition E_nmul_eid := nmul_eid Fp f0 f1 fa fm fs fo fd fi Fth dF.
Definition E_nmul_mod := nmul_mod Fp f0 f1 fa fm fs fo fd fi Fth F_dec dF iF dF_nonsquare iF_sq two_nzF.
Definition E_nmul_order := nmul_order Fp f0 f1 fa fm fs fo fd fi Fth F_dec dF iF dF_nonsquare iF_sq two_nzF.
Definition E_pmul_nmul := pmul_nmul Fp f0 f1 fa fm fs fo fd fi Fth F_dec dF iF dF_nonsquare iF_sq two_nzF.
Definition E_cancel_r := eadd_cancel_r Fp f0 f1 fa fm fs fo fd fi Fth F_dec dF iF dF_nonsquare iF_sq two_nzF.

Declare Scope Fp_scope.
Delimit Scope Fp_scope with Fp.
Infix "+" := fa : Fp_scope.
Infix "*" := fm : Fp_scope.
Infix "-" := fs : Fp_scope.
Infix "/" := fd : Fp_scope.
Notation "- x" := (fo x) : Fp_scope.

Definition aff (P : point) : Fp * Fp := (fd (F (px P)) (F (pz P)), fd (F (py P)) (F (pz P))).

Definition valid (P : point) : Prop :=
  F (pz P) <> f0 /\ onc (aff P) /\ fm (F (pt P)) (F (pz P)) = fm (F (px P)) (F (py P)).

Lemma valid_onc P : valid P -> onc (aff P).
Proof. intros (_ & C & _). exact C. Qed.

Lemma fm_cancel_iff (a b c : Fp) : c <> f0 -> (fm a c = fm b c <-> a = b).
Proof. intro Hc. split; [now apply fm_cancel_r | now intros ->]. Qed.

Lemma valid_coords P : valid P -> exists x y, aff P = (x, y) /\ onc (x, y) /\ F (pz P) <> f0 /\
  F (px P) = fm x (F (pz P)) /\ F (py P) = fm y (F (pz P)) /\ F (pt P) = fm (fm x y) (F (pz P)).
Proof.
  intros (Hz & C & Ht). exists (fd (F (px P)) (F (pz P))), (fd (F (py P)) (F (pz P))).
  split; [reflexivity|]. split; [exact C|]. split; [exact Hz|]. split; [|split].
  - field. exact Hz.
  - field. exact Hz.
  - apply (fm_cancel_r _ _ (F (pz P)) Hz). rewrite Ht. field. exact Hz.
Qed.

Lemma valid_of_coords P x y z : z <> f0 -> onc (x, y) ->
  F (px P) = fm x z -> F (py P) = fm y z -> F (pz P) = z -> F (pt P) = fm (fm x y) z ->
  valid P /\ aff P = (x, y).
Proof.
  intros Hz C EX EY EZ ET.
  assert (A : aff P = (x, y)) by (unfold aff; rewrite EX, EY, EZ; apply f_equal2; field; exact Hz).
  split; [|exact A]. unfold valid. rewrite A, EZ. split; [exact Hz|]. split; [exact C|]. rewrite ET, EX, EY. ring.
Qed.

Lemma valid_id : valid pt_id /\ aff pt_id = eid.
Proof.
  apply (valid_of_coords pt_id f0 f1 f1); [exact (F_1_neq_0 Fth) | exact E_onc_id | ..].
  all: cbn [px py pz pt pt_id]; rewrite ?F_0, ?F_1; ring.
Qed.

Lemma aff_z1 x y t : aff {| px := x; py := y; pz := 1; pt := t |} = (F x, F y).
Proof. unfold aff. cbn [px py pz]. rewrite F_1. apply f_equal2; field; exact (F_1_neq_0 Fth). Qed.

Lemma valid_z1 K x y : onc (F x, F y) -> valid {| px := x; py := y; pz := 1; pt := fmul K x y |}.
Proof.
  intro C. apply (valid_of_coords _ (F x) (F y) f1); [exact (F_1_neq_0 Fth) | exact C | ..].
  all: cbn [px py pz pt]; rewrite ?F_fmul, ?F_1; ring.
Qed.

(* unified addition (add-2008-hwcd-3): with e = d x1 x2 y1 y2 and k = 2 Z1 Z2 the sum has Z = k (1 - e) k (1 + e), non-zero
   by completeness of the affine law; each output coordinate is then an identity of field expressions *)
Theorem pt_add_correct K P Q : valid P -> valid Q ->
  valid (pt_add K P Q) /\ aff (pt_add K P Q) = eadd (aff P) (aff Q).
Proof.
  intros VP VQ.
  destruct (valid_coords P VP) as (x1 & y1 & -> & C1 & Hz1 & EX1 & EY1 & ET1).
  destruct (valid_coords Q VQ) as (x2 & y2 & -> & C2 & Hz2 & EX2 & EY2 & ET2).
  pose proof (E_den_p _ _ _ _ C1 C2) as Dp. pose proof (E_den_m _ _ _ _ C1 C2) as Dm.
  pose (e := (dF * x1 * x2 * y1 * y2)%Fp). pose (k := ((f1 + f1) * F (pz P) * F (pz Q))%Fp).
  assert (Hk : k <> f0) by (apply E_mul_nz; [apply E_mul_nz; [exact two_nzF | exact Hz1] | exact Hz2]).
  apply (valid_of_coords _ _ _ (k * (f1 - e) * (k * (f1 + e)))%Fp).
  1: apply E_mul_nz; apply E_mul_nz; [exact Hk | exact Dm | exact Hk | exact Dp].
  1: exact (E_onc (x1, y1) (x2, y2) C1 C2).
  all: unfold pt_add; cbn [px py pz pt]; repeat rewrite ?F_fmul, ?F_fsub, ?F_fadd; rewrite ?F_2; fold dF.
  all: rewrite ?EX1, ?EY1, ?ET1, ?EX2, ?EY2, ?ET2; unfold k, e; field.
  - exact Dp.
  - exact Dm.
  - split; assumption.
Qed.

Theorem pt_neg_correct K P : valid P -> valid (pt_neg K P) /\ aff (pt_neg K P) = eneg (aff P).
Proof.
  intro V. destruct (valid_coords P V) as (x & y & -> & C & Hz & EX & EY & ET).
  apply (valid_of_coords _ (fo x) y (F (pz P))); [exact Hz | exact (E_onc_neg (x, y) C) | ..].
  all: unfold pt_neg; cbn [px py pz pt]; rewrite ?F_fneg, ?EX, ?EY, ?ET; ring.
Qed.

Lemma pt_mul_pos_correct K e P : valid P ->
  valid (pt_mul_pos K e P) /\ aff (pt_mul_pos K e P) = pmul e (aff P).
Proof.
  intro V. induction e as [e [IV IA]|e [IV IA]|]; cbn [pt_mul_pos Edwards.pmul].
  - destruct (pt_add_correct K _ _ IV IV) as [V2 A2].
    destruct (pt_add_correct K _ _ V2 V) as [V3 A3].
    split; [exact V3|]. now rewrite A3, A2, IA.
  - destruct (pt_add_correct K _ _ IV IV) as [V2 A2].
    split; [exact V2|]. now rewrite A2, IA.
  - split; [exact V|reflexivity].
Qed.

Theorem pt_mul_correct K e P : valid P ->
  valid (pt_mul K e P) /\ aff (pt_mul K e P) = nmul (Z.to_nat e) (aff P).
Proof.
  intro V. destruct e as [|e|e]; cbn [pt_mul Z.to_nat].
  - exact valid_id.
  - destruct (pt_mul_pos_correct K e P V) as [V' A]. split; [exact V'|].
    rewrite A. apply E_pmul_nmul, valid_onc, V.
  - exact valid_id.
Qed.

(* the same facts one at a time: validity for [auto with validity], affine images for [rewrite] *)
Lemma valid_pt_id : valid pt_id.
Proof. apply valid_id. Qed.
Lemma aff_id : aff pt_id = eid.
Proof. apply valid_id. Qed.
Lemma valid_add K P Q : valid P -> valid Q -> valid (pt_add K P Q).
Proof. intros VP VQ. now apply pt_add_correct. Qed.
Lemma aff_add K P Q : valid P -> valid Q -> aff (pt_add K P Q) = eadd (aff P) (aff Q).
Proof. intros VP VQ. now apply pt_add_correct. Qed.
Lemma valid_neg K P : valid P -> valid (pt_neg K P).
Proof. intro V. now apply pt_neg_correct. Qed.
Lemma aff_neg K P : valid P -> aff (pt_neg K P) = eneg (aff P).
Proof. intro V. now apply pt_neg_correct. Qed.
Lemma valid_mul K e P : valid P -> valid (pt_mul K e P).
Proof. intro V. now apply pt_mul_correct. Qed.
Lemma aff_mul K e P : valid P -> aff (pt_mul K e P) = nmul (Z.to_nat e) (aff P).
Proof. intro V. now apply pt_mul_correct. Qed.
(* no constant is unfolded during the search: unfolding the point operations would start computing in Zp *)
Create HintDb validity discriminated.
Global Hint Constants Opaque : validity.
Global Hint Resolve valid_pt_id valid_add valid_neg valid_mul : validity.

(* the backend's equality (RFC 9496 4.3.3) holds EXACTLY when the two curve points differ by one of the four
   4-torsion points (0, +-1), (+-i, 0) — RFC 9496 equality is equality modulo that subgroup *)
Definition tors4F := tors4 Fp f0 f1 fo iF.
Definition E_cross := cross_eq_iff_tors4 Fp f0 f1 fa fm fs fo fd fi Fth F_dec dF iF dF_nonsquare iF_sq two_nzF.

Theorem pt_eqb_iff K P Q : valid P -> valid Q ->
  (pt_eqb K P Q = true <-> tors4F (eadd (aff P) (eneg (aff Q)))).
Proof.
  intros VP VQ.
  destruct (valid_coords P VP) as (x1 & y1 & -> & C1 & Hz1 & EX1 & EY1 & _).
  destruct (valid_coords Q VQ) as (x2 & y2 & -> & C2 & Hz2 & EX2 & EY2 & _).
  rewrite <- (E_cross x1 y1 x2 y2 C1 C2).
  assert (Hzz : fm (F (pz P)) (F (pz Q)) <> f0) by (apply E_mul_nz; assumption).
  (* the cross products the backend compares are those of the affine coordinates, scaled by Z1 Z2 <> 0 *)
  assert (R : forall a b, fm (fm a (F (pz P))) (fm b (F (pz Q))) = fm (fm a b) (fm (F (pz P)) (F (pz Q)))) by (intros; ring).
  unfold pt_eqb. rewrite orb_true_iff, !Z.eqb_eq, !(fmul_zv K), EX1, EY1, EX2, EY2, !R, !(zv_eq_iff fp).
  rewrite !(fm_cancel_iff _ _ _ Hzz). reflexivity.
Qed.

Theorem pt_eqb_of_aff K P Q : valid P -> valid Q -> aff P = aff Q -> pt_eqb K P Q = true.
Proof.
  intros VP VQ E. apply (pt_eqb_iff K P Q VP VQ). rewrite <- E, (E_neg_r _ (valid_onc P VP)). left. reflexivity.
Qed.

Lemma valid_base K : valid (pt_base K).
Proof.
  apply valid_z1. unfold Edwards.onc, dF, fs, fm, fa, f1, F.
  change (z1 fp) with (of_Z fp 1). rewrite <- !of_Z_mul, <- of_Z_sub, <- of_Z_add.
  apply of_Z_eq. vm_compute. reflexivity.
Qed.
Global Hint Resolve valid_base : validity.

(* [l]B is the neutral element: kernel evaluation of the double-and-add over BigZ that Model/RistrettoFast.v proves
   equal to the model's own *)
Lemma ell_base_coords :
  exists R, pt_mul K_ref ell (pt_base K_ref) = R /\ px R = 0 /\ py R = pz R.
Proof. eexists. split; [rewrite <- fast_pt_mul_ok; vm_compute; reflexivity|]. split; reflexivity. Qed.

(* the group order as a natural number; a NOTATION, so that no conversion test ever has to unfold a constant
   against [Z.to_nat ell] (which would evaluate a 252-bit unary number) *)
Notation Ln := (Z.to_nat ell).

Lemma base_order K : nmul Ln (aff (pt_base K)) = eid.
Proof.
  assert (EB : pt_base K = pt_base K_ref) by (unfold pt_base; now rewrite fmul_K).
  rewrite EB. destruct (pt_mul_correct K_ref ell _ (valid_base K_ref)) as [V A].
  rewrite <- A.
  destruct ell_base_coords as (R & ER & Hx & Hy). rewrite ER in V |- *. clear ER A.
  destruct V as (Hz & _ & _).
  unfold aff. rewrite Hx, Hy, F_0. unfold Edwards.eid.
  apply f_equal2; field; exact Hz.
Qed.

Lemma Ln_nz : (Ln <> 0)%nat.
Proof. intro E. apply (f_equal Z.of_nat) in E. rewrite Z2Nat.id in E; discriminate. Qed.

(* curve points of order dividing l: the group the protocols run in *)
Definition ord_l (A : Fp * Fp) : Prop := onc A /\ nmul Ln A = eid.

Lemma ord_l_aff P : valid P -> nmul Ln (aff P) = eid -> ord_l (aff P).
Proof. intros V H. exact (conj (valid_onc P V) H). Qed.

Lemma ord_l_base K : ord_l (aff (pt_base K)).
Proof. exact (ord_l_aff _ (valid_base K) (base_order K)). Qed.

Lemma nmul_congr A (a b : Z) : ord_l A -> 0 <= a -> 0 <= b -> a mod ell = b mod ell ->
  nmul (Z.to_nat a) A = nmul (Z.to_nat b) A.
Proof.
  intros [C H] Ha Hb E.
  rewrite <- (E_nmul_mod Ln (Z.to_nat a) A Ln_nz C H), <- (E_nmul_mod Ln (Z.to_nat b) A Ln_nz C H).
  f_equal. apply Nat2Z.inj. rewrite !Nat2Z.inj_mod, !Z2Nat.id by (try assumption; discriminate). exact E.
Qed.

Lemma smod_spec K a : smod K a = a mod ell.
Proof. unfold smod. apply k_mod_ok. Qed.

Lemma smod_range K a : 0 <= smod K a < ell.
Proof. rewrite smod_spec. apply Z.mod_pos_bound. reflexivity. Qed.

Lemma nmul_sc_add K A a b : ord_l A -> 0 <= a -> 0 <= b ->
  nmul (Z.to_nat (sc_add K a b)) A = eadd (nmul (Z.to_nat a) A) (nmul (Z.to_nat b) A).
Proof.
  intros O Ha Hb. rewrite <- (E_nmul_add _ _ _ (proj1 O)), <- Z2Nat.inj_add by assumption.
  apply nmul_congr; [exact O | apply smod_range | lia |].
  unfold sc_add. rewrite smod_spec. apply Z.mod_mod. discriminate.
Qed.

Lemma nmul_sc_mul K A a b : ord_l A -> 0 <= a -> 0 <= b ->
  nmul (Z.to_nat (sc_mul K a b)) A = nmul (Z.to_nat a) (nmul (Z.to_nat b) A).
Proof.
  intros O Ha Hb. rewrite <- (E_nmul_mul _ _ _ (proj1 O)), <- Z2Nat.inj_mul by assumption.
  apply nmul_congr; [exact O | apply smod_range | nia |].
  unfold sc_mul. rewrite smod_spec, k_mul_ok. apply Z.mod_mod. discriminate.
Qed.

Lemma pm_pt_mul (K : Kernel) (PM : PMul) e P : pm_mul PM e P = pt_mul K e P.
Proof. rewrite pm_ok. symmetry. apply pt_mul_K. Qed.

Lemma pm_correct (PM : PMul) e P : valid P -> valid (pm_mul PM e P) /\ aff (pm_mul PM e P) = nmul (Z.to_nat e) (aff P).
Proof. intro V. rewrite pm_ok. now apply pt_mul_correct. Qed.

Section RBTheorems.
  Variable K : Kernel.
  Variable PM : PMul.
  Notation B := (RB K PM).

  Lemma rb_pow a x : b_pow B a x = pt_mul K x a.
  Proof. exact (pm_pt_mul K PM x a). Qed.

  Lemma rb_gen_valid : valid (b_gen B).  Proof. exact (valid_base K). Qed.
  Local Hint Resolve rb_gen_valid : validity.

  Lemma elgamal_point g m sk r : valid g -> valid m ->
    let d := pt_add K (pt_add K m (pt_mul K r (pt_mul K sk g))) (pt_neg K (pt_mul K sk (pt_mul K r g))) in
    valid d /\ aff d = aff m.
  Proof.
    intros Vg Vm. split; [auto with validity|].
    rewrite 2 aff_add, aff_neg, 4 aff_mul by auto with validity.
    pose proof (valid_onc g Vg) as Cg.
    rewrite <- !(E_nmul_mul _ _ _ Cg). rewrite (Nat.mul_comm (Z.to_nat sk)).
    apply E_cancel_r; [now apply valid_onc | now apply E_nmul_onc].
  Qed.

  Theorem rb_elgamal_roundtrip sk r m : valid m ->
    exists d, decrypt B sk (encrypt_with_randomness B (pk_of_sk B sk) m r) = Ok d /\
              valid d /\ aff d = aff m /\ b_eqb B d m = true.
  Proof.
    intro Vm. destruct (elgamal_point (b_gen B) m sk r rb_gen_valid Vm) as [Vd A].
    unfold decrypt, encrypt_with_randomness, pk_of_sk, b_gpow, b_divp. cbn [mhr gr].
    cbn [b_invp b_modp b_mul RB bind]. rewrite !rb_pow.
    eexists. split; [reflexivity|]. split; [exact Vd|]. split; [exact A|].
    now apply pt_eqb_of_aff.
  Qed.

  Theorem rb_ct_mul_aff (c1 c2 : ctext B) : valid (mhr c1) -> valid (mhr c2) -> valid (gr c1) -> valid (gr c2) ->
    aff (mhr (ct_mul B c1 c2)) = eadd (aff (mhr c1)) (aff (mhr c2)) /\
    aff (gr (ct_mul B c1 c2)) = eadd (aff (gr c1)) (aff (gr c2)).
  Proof.
    intros V1 V2 V3 V4. unfold ct_mul, b_mulp. cbn [mhr gr b_modp b_mul RB]. split; now apply aff_add.
  Qed.

  Lemma rb_hash_range bs : 0 <= b_hash_to_exp B bs < ell.
  Proof. cbn. unfold r_hash_to_exp, sc_from_bytes_mod_order. apply smod_range. Qed.

  (* the verification equation of every sigma proof below: for a base g of order dividing l, commitment [r]g, public
     value [x]g and ANY challenge c, the response opens it:  [r + c x]g = [r]g + [c][x]g  up to the backend's equality *)
  Lemma rb_sigma_eq g c x r : valid g -> ord_l (aff g) -> 0 <= c -> 0 <= x -> 0 <= r ->
    pt_eqb K (b_pow B g (b_xmodq B (b_xadd B r (b_xmul B c x)))) (pt_add K (b_pow B g r) (b_pow B (b_pow B g x) c)) = true.
  Proof.
    intros Vg Og Hc Hx Hr. rewrite !rb_pow. apply pt_eqb_of_aff; [auto with validity ..|].
    rewrite aff_add, !aff_mul by auto with validity. cbn [b_xmodq b_xadd b_xmul RB].
    rewrite (nmul_sc_add K _ r (sc_mul K c x) Og Hr (proj1 (smod_range K _))), (nmul_sc_mul K _ c x Og Hc Hx). reflexivity.
  Qed.

  Theorem rb_schnorr_complete g x r label : valid g -> nmul Ln (aff g) = eid -> 0 <= x -> 0 <= r ->
    schnorr_verify B (b_pow B g x) (Some g) (schnorr_prove B x (b_pow B g x) (Some g) label r) label = true.
  Proof.
    intros Vg Hg Hx Hr.
    unfold schnorr_verify, schnorr_prove, schnorr_verify_private, schnorr_prove_private, base_or_gen.
    cbn [s_com s_chal s_resp]. rewrite Z.eqb_refl. cbn [andb].
    apply rb_sigma_eq; try assumption; [now apply ord_l_aff | unfold schnorr_challenge; apply rb_hash_range].
  Qed.

  Theorem rb_schnorr_complete_default x r label : 0 <= x -> 0 <= r ->
    schnorr_verify B (b_gpow B x) None (schnorr_prove B x (b_gpow B x) None label r) label = true.
  Proof. exact (rb_schnorr_complete (b_gen B) x r label rb_gen_valid (base_order K)). Qed.

  (* the private form is the one used by the ciphertext-bound proofs: any challenge context, default or explicit first base *)
  Theorem rb_cp_complete_private (g1 : option point) g2 x r context :
    valid (base_or_gen B g1) -> valid g2 ->
    nmul Ln (aff (base_or_gen B g1)) = eid -> nmul Ln (aff g2) = eid -> 0 <= x -> 0 <= r ->
    cp_verify_private B (b_pow B (base_or_gen B g1) x) (b_pow B g2 x) g1 g2
      (cp_prove_private B x (b_pow B (base_or_gen B g1) x) (b_pow B g2 x) g1 g2 context r) context = true.
  Proof.
    intros V1 V2 H1 H2 Hx Hr. pose proof (ord_l_aff _ V1 H1) as O1. pose proof (ord_l_aff _ V2 H2) as O2.
    unfold cp_verify_private, cp_prove_private.
    cbn [c_com1 c_com2 c_chal c_resp]. rewrite Z.eqb_refl. cbn [andb].
    assert (Hc : forall bs, 0 <= b_hash_to_exp B bs) by apply rb_hash_range.
    apply andb_true_iff. split; apply rb_sigma_eq; try assumption; apply Hc.
  Qed.

  Theorem rb_cp_complete g1 g2 x r label : valid g1 -> valid g2 ->
    nmul Ln (aff g1) = eid -> nmul Ln (aff g2) = eid -> 0 <= x -> 0 <= r ->
    cp_verify B (b_pow B g1 x) (b_pow B g2 x) (Some g1) g2
              (cp_prove B x (b_pow B g1 x) (b_pow B g2 x) (Some g1) g2 label r) label = true.
  Proof. exact (fun V1 V2 => rb_cp_complete_private (Some g1) g2 x r (ctx_label label) V1 V2). Qed.

  (* the order premise on gr holds for every honestly made ciphertext, gr = [r]B (rb_gr_order) *)
  Theorem rb_decrypt_and_prove_complete sk (c : ctext B) label r :
    valid (mhr c) -> valid (gr c) -> nmul Ln (aff (gr c)) = eid -> 0 <= sk -> 0 <= r ->
    exists d pf, decrypt_and_prove B sk (pk_of_sk B sk) c label r = Ok (d, pf) /\
      verify_decryption B (pk_of_sk B sk) (decryption_factor B sk c) (mhr c) (gr c) pf label = true /\
      valid d /\ aff d = eadd (aff (mhr c)) (eneg (nmul (Z.to_nat sk) (aff (gr c)))).
  Proof.
    intros Vm Vg Hg Hsk Hr.
    exists (pt_add K (mhr c) (pt_neg K (b_pow B (gr c) sk))).
    exists (decryption_proof B sk (pk_of_sk B sk) (b_pow B (gr c) sk) (mhr c) (gr c) label r).
    split; [reflexivity|]. split; [|rewrite rb_pow; split; [auto with validity|]].
    - pose proof (rb_cp_complete_private None (gr c) sk r (ctx_mhr_label B (mhr c) label)
                    rb_gen_valid Vg (base_order K) Hg Hsk Hr) as H.
      unfold base_or_gen in H. exact H.
    - now rewrite aff_add, aff_neg, aff_mul by auto with validity.
  Qed.

  Lemma rb_gr_order pk m r : nmul Ln (aff (gr (encrypt_with_randomness B pk m r))) = eid.
  Proof.
    unfold encrypt_with_randomness, b_gpow. cbn [gr]. rewrite rb_pow, aff_mul by apply rb_gen_valid.
    apply E_nmul_order; [apply valid_onc, rb_gen_valid | apply base_order].
  Qed.
End RBTheorems.
