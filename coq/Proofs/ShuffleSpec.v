(* Proofs/ShuffleSpec.v — decision characterisation of the shuffle verifier `check_proof` of
   Model/Shuffler.v over any lawful backend and ANY hash function: on decoded (member) input with one
   generator more than ciphertexts, the code-shaped verifier (invp / divp / unreduced triple products / forallb / mapM) returns `Ok true`
   exactly when the component counts are right and the division-free Terelius-Wikstrom equations hold
   for the challenges recomputed from the complete statement; it returns `Ok false` on any wrong count;
   it never panics or errs. Consequence (q prime, g <> 1): an accepted proof stops being accepted when
   one of its responses s1, s2, s3, s4 or the vector s_hats is replaced by other canonical exponents. *)
From Coq Require Import ZArith Znumtheory List Lia Bool.
From Strand Require Import Model.Outcome Model.Backend Model.Zkp Model.Shuffler
  Proofs.Laws Proofs.SigmaP Proofs.ListAlg.
Import ListNotations.
Open Scope Z_scope.

Section Spec.
  Variable B : Backend.
  Variable mem : E B -> Prop.
  Hypothesis L : Laws B mem.
  Notation q := (b_q B).
  Notation mulp := (b_mulp B).
  Notation pow := (b_pow B).
  Notation gpow := (b_gpow B).
  Notation one := (b_one B).
  Notation nonneg := (fun r : Z => 0 <= r).

  (* well-formedness of what a decoder hands to the verifier *)
  Definition wf_ct (c : ctext B) : Prop := mem (mhr c) /\ mem (gr c).

  Definition wf_proof (pf : sproof B) : Prop :=
    let t := pf_t B pf in let s := pf_s B pf in
    mem (t1 B t) /\ mem (t2 B t) /\ mem (t3 B t) /\ mem (t41 B t) /\ mem (t42 B t) /\ Forall mem (t_hats B t) /\
    0 <= s1 s /\ 0 <= s2 s /\ 0 <= s3 s /\ 0 <= s4 s /\
    Forall (fun x => 0 <= x) (s_hats s) /\ Forall (fun x => 0 <= x) (s_primes s) /\
    Forall mem (pf_cs B pf) /\ Forall mem (pf_c_hats B pf).

  Definition lengths_ok (pf : sproof B) (es e_primes : list (ctext B)) : Prop :=
    let N := length es in
    (1 <= N)%nat /\ length e_primes = N /\ length (pf_cs B pf) = N /\ length (pf_c_hats B pf) = N /\
    length (t_hats B (pf_t B pf)) = N /\ length (s_hats (pf_s B pf)) = N /\ length (s_primes (pf_s B pf)) = N.

  (* the division-free Terelius-Wikstrom equations for challenges us (per ciphertext) and c (final) *)
  Definition tw_equations (pk h0 : E B) (hs : list (E B)) (pf : sproof B) (es e_primes : list (ctext B))
             (us : list Z) (c : Z) : Prop :=
    let t := pf_t B pf in let s := pf_s B pf in
    let cs := pf_cs B pf in let chs := pf_c_hats B pf in
    let u := fold_left (fun acc x => b_xmodq B (b_xmul B acc x)) us 1 in
    (* 1 *) mulp (t1 B t) (pow (prodp B cs) c) = mulp (gpow (s1 s)) (pow (prodp B hs) c) /\
    (* 2 *) mulp (t2 B t) (pow (last chs one) c) = mulp (gpow (s2 s)) (pow (pow h0 u) c) /\
    (* 3 *) mulp (t3 B t) (pow (prodp B (map (fun cu => pow (fst cu) (snd cu)) (combine cs us))) c)
            = mulp (gpow (s3 s)) (prodp B (map (fun hs' => pow (fst hs') (snd hs')) (combine hs (s_primes s)))) /\
    (* 4.1 *) mulp (mulp (t41 B t) (pow (prodp B (map (fun eu => pow (mhr (fst eu)) (snd eu)) (combine es us))) c))
                   (pow pk (s4 s))
            = prodp B (map (fun es' => pow (mhr (fst es')) (snd es')) (combine e_primes (s_primes s))) /\
    (* 4.2 *) mulp (mulp (t42 B t) (pow (prodp B (map (fun eu => pow (gr (fst eu)) (snd eu)) (combine es us))) c))
                   (pow (b_gen B) (s4 s))
            = prodp B (map (fun es' => pow (gr (fst es')) (snd es')) (combine e_primes (s_primes s))) /\
    (* chain *) Forall (fun x : E B * (E B * (E B * (Z * Z))) =>
                   let '(that, (prev, (ci, (sh, sp)))) := x in
                   mulp that (pow ci c) = mulp (gpow sh) (pow prev sp))
                (combine (t_hats B t) (combine (h0 :: chs) (combine chs (combine (s_hats s) (s_primes s))))).

  Lemma divp_ok x y i : b_invp B y = Ok i -> b_divp B x y = Ok (b_mul B x i).
  Proof. intros E. unfold b_divp. rewrite E. reflexivity. Qed.

  Lemma shuffle_us_ok es e_primes cs n label :
    length (shuffle_us B es e_primes cs n label) = n /\ Forall nonneg (shuffle_us B es e_primes cs n label).
  Proof.
    unfold shuffle_us. cbv zeta. split; [now rewrite map_length, seq_length|].
    rewrite Forall_map. apply Forall_forall. intros i _. apply (hash_range B mem L).
  Qed.

  Lemma wf_ct_mhr l : Forall wf_ct l -> Forall mem (map (@mhr B) l).
  Proof. intros H. rewrite Forall_map. revert H. apply Forall_impl. intros x [H _]. exact H. Qed.

  Lemma wf_ct_gr l : Forall wf_ct l -> Forall mem (map (@gr B) l).
  Proof. intros H. rewrite Forall_map. revert H. apply Forall_impl. intros x [_ H]. exact H. Qed.

  Lemma last_mem (l : list (E B)) d : Forall mem l -> mem d -> mem (last l d).
  Proof.
    intros H. revert d. induction H as [|a l Ha Hl IH]; intros d Hd; [exact Hd|].
    rewrite last_cons. apply IH. exact Ha.
  Qed.

  Lemma prodp_powf_mem {X} (f : X -> E B) (l : list X) xs :
    Forall mem (map f l) -> Forall nonneg xs ->
    mem (prodp B (map (fun p : X * Z => pow (f (fst p)) (snd p)) (combine l xs))).
  Proof. intros Hl Hx. rewrite (powl_map B). apply (prodp_mem B mem L), (powl_mem B mem L); assumption. Qed.

  Lemma us_prod_nonneg us : Forall nonneg us ->
    0 <= fold_left (fun acc x : Z => b_xmodq B (b_xmul B acc x)) us 1.
  Proof. intros Hus. exact (proj1 (uprod_acc B mem L us Hus 1 1 (rep_refl B 1 Z.le_0_1))). Qed.

  Lemma move_r x y k k' : mem x -> mem y -> mem k -> mem k' -> mulp k k' = one ->
    (mulp x k = y <-> x = mulp y k').
  Proof.
    intros Hx Hy Hk Hk' E. split; intros H.
    - rewrite <- H. symmetry. apply (mulp_inv_r B mem L); assumption.
    - rewrite H. apply (mulp_inv_r B mem L); try assumption.
      rewrite (mulp_comm B mem L) by assumption. exact E.
  Qed.

  (* The verifier compares t with a product that holds the c-th power of an inverse i; each of the three
     lemmas turns such a comparison into the equation without the inverse.
     t == (i^c * G) * T  <=>  t * a^c = G * T        (a i = 1): equation 3 and the chain equations *)
  Lemma eq3 t a i G T c : mem t -> mem a -> mem i -> mem G -> mem T -> 0 <= c -> mulp a i = one ->
    (b_eqb B t (mulp (mulp (pow i c) G) T) = true <-> mulp t (pow a c) = mulp G T).
  Proof.
    intros Ht Ha Hi HG HT Hc E. etransitivity; [apply (eqb_spec B mem L); memt|].
    rewrite (mulp_assoc B mem L) by memt. rewrite (mulp_comm B mem L (pow i c)) by memt.
    symmetry. apply move_r; memt. apply (pow_inv_cancel B mem L); assumption.
  Qed.

  (* t == (i^c * k'^s) * T  <=>  (t * a^c) * k^s = T     (a i = 1, k k' = 1): equations 4.1 and 4.2 *)
  Lemma eq4 t a i k k' T c s : mem t -> mem a -> mem i -> mem k -> mem k' -> mem T -> 0 <= c -> 0 <= s ->
    mulp a i = one -> mulp k k' = one ->
    (b_eqb B t (mulp (mulp (pow i c) (pow k' s)) T) = true <-> mulp (mulp t (pow a c)) (pow k s) = T).
  Proof.
    intros Ht Ha Hi Hk Hk' HT Hc Hs E1 E2.
    etransitivity; [apply (eq3 t a i (pow k' s) T c); memt|].
    rewrite (mulp_comm B mem L (pow k' s)) by memt.
    symmetry. apply move_r; memt. apply (pow_inv_cancel B mem L); assumption.
  Qed.

  (* t == i^c * g^s  <=>  t * N^c = g^s * D^c     (D di = 1, (N di) i = 1): equations 1 and 2 *)
  Lemma eq12 t N D di i c s : mem t -> mem N -> mem D -> mem di -> mem i -> 0 <= c -> 0 <= s ->
    mulp D di = one -> mulp (mulp N di) i = one ->
    (b_eqb B t (mulp (pow i c) (gpow s)) = true <-> mulp t (pow N c) = mulp (gpow s) (pow D c)).
  Proof.
    intros Ht HN HD Hdi Hi Hc Hs E1 E2. etransitivity; [apply (eqb_spec B mem L); memt|].
    rewrite (mulp_comm B mem L (pow i c)) by memt.
    etransitivity;
      [symmetry; apply (move_r t (gpow s) (pow (mulp N di) c) (pow i c)); memt;
       apply (pow_inv_cancel B mem L); memt|].
    rewrite (pow_mulp B mem L) by memt. rewrite <- (mulp_assoc B mem L) by memt.
    apply move_r; memt. apply (pow_inv_cancel B mem L); memt.
    rewrite (mulp_comm B mem L) by assumption. exact E1.
  Qed.

  Definition chain_eq (c : Z) (x : E B * (E B * (E B * (Z * Z)))) : Prop :=
    let '(that, (prev, (ci, (sh, sp)))) := x in
    mulp that (pow ci c) = mulp (gpow sh) (pow prev sp).

  (* the per-index chain check, in the words of check_proof: [check_decides] finds it there by conversion *)
  Definition chk_step (c : Z) (x : E B * (E B * (Z * Z))) : outcome (E B) :=
    let '(prev, (ci, (sh, sp))) := x in
    (inv <- b_invp B ci ;;
     Ok (b_modp B (b_mul B (b_mul B (pow inv c) (gpow sh)) (pow prev sp))))%outcome.

  Definition okx (x : E B * (E B * (Z * Z))) : Prop :=
    let '(prev, (ci, (sh, sp))) := x in mem prev /\ mem ci /\ 0 <= sh /\ 0 <= sp.

  Lemma okx_combine prevs cis shs sps :
    Forall mem prevs -> Forall mem cis -> Forall nonneg shs -> Forall nonneg sps ->
    Forall okx (combine prevs (combine cis (combine shs sps))).
  Proof.
    intros H1 H2 H3 H4.
    pose proof (Forall_combine _ _ _ _ H3 H4) as F1.
    pose proof (Forall_combine _ _ _ _ H2 F1) as F2.
    pose proof (Forall_combine _ _ _ _ H1 F2) as F3.
    eapply Forall_impl; [|exact F3]. cbv beta.
    intros [prev [ci [sh sp]]]. cbn [fst snd okx]. tauto.
  Qed.

  Lemma chain_that c l : 0 <= c -> Forall okx l ->
    exists that, mapM (chk_step c) l = Ok that /\
      forall ths, Forall mem ths ->
        (forallb (fun ab => b_eqb B (fst ab) (snd ab)) (combine ths that) = true <->
         Forall (chain_eq c) (combine ths l)).
  Proof.
    intros Hc. induction 1 as [|[prev [ci [sh sp]]] l (Hp & Hci & Hsh & Hsp) Hl (that & Hm & IH)].
    - exists []. split; [reflexivity|]. intros ths _. destruct ths; cbn [combine forallb]; split; auto.
    - destruct (invp_ok B mem L ci Hci) as (i & Ei & Hi & Hinv).
      exists (mulp (mulp (pow i c) (gpow sh)) (pow prev sp) :: that). split.
      + cbn [mapM]. unfold chk_step at 1. rewrite Ei. cbn [bind]. rewrite Hm.
        rewrite (modp_mul3 B mem L). reflexivity.
      + intros ths Hths. destruct Hths as [|th ths Hth Hths].
        * cbn [combine forallb]. split; auto.
        * cbn [combine forallb fst snd]. rewrite andb_true_iff, Forall_cons_iff, (IH ths Hths).
          apply and_iff_compat_r.
          unfold chain_eq. apply eq3; memt.
  Qed.

  (* the length tests of check_proof, in its words: [check_guard_true] and [check_decides] rewrite with it *)
  Definition guard (pf : sproof B) (es e_primes : list (ctext B)) : bool :=
    ((length es =? 0) || negb (length e_primes =? length es) || negb (length (pf_cs B pf) =? length es)
     || negb (length (pf_c_hats B pf) =? length es) || negb (length (t_hats B (pf_t B pf)) =? length es)
     || negb (length (s_hats (pf_s B pf)) =? length es) || negb (length (s_primes (pf_s B pf)) =? length es))%nat.

  Lemma guard_false_iff pf es e_primes : guard pf es e_primes = false <-> lengths_ok pf es e_primes.
  Proof.
    unfold guard, lengths_ok. cbv zeta.
    rewrite !orb_false_iff, !negb_false_iff, !Nat.eqb_eq, Nat.eqb_neq. split.
    - intros ((((((H0 & H1) & H2) & H3) & H4) & H5) & H6). repeat split; try assumption. lia.
    - intros (H0 & H1 & H2 & H3 & H4 & H5 & H6). repeat split; try assumption. lia.
  Qed.

  Lemma guard_true_iff pf es e_primes : guard pf es e_primes = true <-> ~ lengths_ok pf es e_primes.
  Proof.
    rewrite <- guard_false_iff. destruct (guard pf es e_primes); split; intro H; congruence.
  Qed.

  Lemma check_guard_true pk h0 hs pf es e_primes label :
    guard pf es e_primes = true -> check_proof B pk (h0 :: hs) pf es e_primes label = Ok false.
  Proof.
    intros G. unfold guard in G. unfold check_proof. cbv zeta. rewrite G. reflexivity.
  Qed.

  Theorem check_proof_wrong_counts : forall pk gens pf es e_primes label,
    gens <> [] -> ~ lengths_ok pf es e_primes ->
    check_proof B pk gens pf es e_primes label = Ok false.
  Proof.
    intros pk gens pf es e_primes label Hg Hn. destruct gens as [|h0 hs]; [congruence|].
    apply check_guard_true. apply guard_true_iff. exact Hn.
  Qed.

  Lemma and6_iff (A1 A2 A3 A4 A5 A6 B1 B2 B3 B4 B5 B6 : Prop) :
    (A1 <-> B1) -> (A2 <-> B2) -> (A3 <-> B3) -> (A4 <-> B4) -> (A5 <-> B5) -> (A6 <-> B6) ->
    (((((A1 /\ A2) /\ A3) /\ A4) /\ A5) /\ A6 <-> B1 /\ B2 /\ B3 /\ B4 /\ B5 /\ B6).
  Proof. tauto. Qed.

  Lemma iff_and_known (P A Q : Prop) : P -> (A <-> Q) -> (A <-> P /\ Q).
  Proof. tauto. Qed.

  (* the verifier's run on decoded input: every inversion succeeds, and each comparison with an inverted
     value is the corresponding division-free equation *)
  Lemma check_decides pk h0 hs pf es e_primes label :
    mem pk -> mem h0 -> Forall mem hs -> Forall wf_ct es -> Forall wf_ct e_primes -> wf_proof pf ->
    length hs = length es ->
    exists b, check_proof B pk (h0 :: hs) pf es e_primes label = Ok b /\
      (b = true <->
       lengths_ok pf es e_primes /\
       tw_equations pk h0 hs pf es e_primes
         (shuffle_us B es e_primes (pf_cs B pf) (length es) label)
         (shuffle_challenge B es e_primes (pf_cs B pf) (pf_c_hats B pf) pk (pf_t B pf) label)).
  Proof.
    intros Hpk Hh0 Hhs Hes Hep Hwf Lhs. destruct (guard pf es e_primes) eqn:G.
    { exists false. split; [exact (check_guard_true pk h0 hs pf es e_primes label G)|].
      apply guard_true_iff in G. split; [discriminate|]. intros [H _]. contradiction. }
    pose proof (proj1 (guard_false_iff pf es e_primes) G) as Hlen.
    unfold wf_proof in Hwf. cbv zeta in Hwf.
    destruct Hwf as (Ht1 & Ht2 & Ht3 & Ht41 & Ht42 & Hth & Hs1 & Hs2 & Hs3 & Hs4 & Hsh & Hsp & Hcs & Hchs).
    assert (Hg : mem (b_gen B)) by memt.
    pose proof (wf_ct_mhr es Hes) as Hem. pose proof (wf_ct_gr es Hes) as Heg.
    pose proof (wf_ct_mhr e_primes Hep) as Hpm. pose proof (wf_ct_gr e_primes Hep) as Hpg.
    set (us := shuffle_us B es e_primes (pf_cs B pf) (length es) label).
    set (c := shuffle_challenge B es e_primes (pf_cs B pf) (pf_c_hats B pf) pk (pf_t B pf) label).
    destruct (shuffle_us_ok es e_primes (pf_cs B pf) (length es) label) as [Lus Hus].
    fold us in Lus, Hus.
    assert (Hc : 0 <= c) by apply (hash_range B mem L).
    set (u := fold_left (fun acc x : Z => b_xmodq B (b_xmul B acc x)) us 1).
    pose proof (us_prod_nonneg us Hus) as Hu0. fold u in Hu0.
    (* every value that gets inverted is a member *)
    pose proof (prodp_mem B mem L _ Hcs) as HPcs. pose proof (prodp_mem B mem L _ Hhs) as HPhs.
    destruct (invp_ok B mem L _ HPhs) as (di & Edi & Hdi & Hdinv).
    assert (Hcb : mem (mulp (prodp B (pf_cs B pf)) di)) by memt.
    assert (Hlast : mem (last (pf_c_hats B pf) one)) by (apply last_mem; [assumption|memt]).
    assert (Hhu : mem (pow h0 u)) by memt.
    destruct (invp_ok B mem L _ Hhu) as (dh & Edh & Hdh & Hdhinv).
    assert (Hchat : mem (mulp (last (pf_c_hats B pf) one) dh)) by memt.
    destruct (invp_ok B mem L _ Hcb) as (i1 & Ei1 & Hi1 & Hinv1).
    destruct (invp_ok B mem L _ Hchat) as (i2 & Ei2 & Hi2 & Hinv2).
    pose proof (prodp_mem B mem L _ (powl_mem B mem L _ Hcs us Hus)) as Hct.
    destruct (invp_ok B mem L _ Hct) as (i3 & Ei3 & Hi3 & Hinv3).
    pose proof (prodp_powf_mem (@mhr B) es us Hem Hus) as Ha'.
    pose proof (prodp_powf_mem (@gr B) es us Heg Hus) as Hb'.
    destruct (invp_ok B mem L _ Ha') as (i4 & Ei4 & Hi4 & Hinv4).
    destruct (invp_ok B mem L pk Hpk) as (pki & Epk & Hpki & Hpkinv).
    destruct (invp_ok B mem L _ Hb') as (i5 & Ei5 & Hi5 & Hinv5).
    destruct (invp_ok B mem L (b_gen B) Hg) as (gi & Eg & Hgi & Hginv).
    pose proof (prodp_mem B mem L _ (powl_mem B mem L _ Hhs _ Hsp)) as Htt3.
    pose proof (prodp_powf_mem (@mhr B) e_primes _ Hpm Hsp) as Htt41.
    pose proof (prodp_powf_mem (@gr B) e_primes _ Hpg Hsp) as Htt42.
    destruct (chain_that c (combine (h0 :: pf_c_hats B pf)
                              (combine (pf_c_hats B pf) (combine (s_hats (pf_s B pf)) (s_primes (pf_s B pf)))))
                Hc ltac:(apply okx_combine; try assumption; constructor; assumption))
      as (that & Hm & Hthat).
    eexists. split.
    - unfold guard in G. unfold check_proof. cbv zeta. rewrite G.
      rewrite Lhs, Nat.eqb_refl. cbn [negb].
      fold us. fold c. fold u.
      eapply bind_rw; [apply divp_ok; exact Edi|].
      eapply bind_rw; [apply divp_ok; exact Edh|].
      eapply bind_rw; [exact Ei1|].
      eapply bind_rw; [exact Ei2|].
      eapply bind_rw; [exact Ei3|].
      eapply bind_rw; [exact Ei4|].
      eapply bind_rw; [exact Epk|].
      eapply bind_rw; [exact Ei5|].
      eapply bind_rw; [exact Eg|].
      eapply bind_rw; [exact Hm|].
      reflexivity.
    - apply iff_and_known; [exact Hlen|].
      unfold tw_equations. cbv zeta. fold us. fold u.
      rewrite !(modp_mul3 B mem L). rewrite !andb_true_iff.
      apply and6_iff.
      + apply (eq12 _ _ _ di i1); assumption.
      + apply (eq12 _ _ _ dh i2); assumption.
      + apply eq3; memt.
      + apply eq4; memt.
      + apply eq4; memt.
      + exact (Hthat _ Hth).
  Qed.

  Theorem check_proof_spec : forall pk h0 hs pf es e_primes label,
    mem pk -> mem h0 -> Forall mem hs -> Forall wf_ct es -> Forall wf_ct e_primes -> wf_proof pf ->
    length hs = length es ->
    (check_proof B pk (h0 :: hs) pf es e_primes label = Ok true <->
     lengths_ok pf es e_primes /\
     tw_equations pk h0 hs pf es e_primes
       (shuffle_us B es e_primes (pf_cs B pf) (length es) label)
       (shuffle_challenge B es e_primes (pf_cs B pf) (pf_c_hats B pf) pk (pf_t B pf) label)).
  Proof.
    intros pk h0 hs pf es e_primes label Hpk Hh0 Hhs Hes Hep Hwf Lhs.
    destruct (check_decides pk h0 hs pf es e_primes label Hpk Hh0 Hhs Hes Hep Hwf Lhs) as (b & Eb & Hb).
    rewrite Eb, <- Hb. split; [intros H; injection H as ->; reflexivity|intros ->; reflexivity].
  Qed.

  Theorem check_proof_total : forall pk h0 hs pf es e_primes label,
    mem pk -> mem h0 -> Forall mem hs -> Forall wf_ct es -> Forall wf_ct e_primes -> wf_proof pf ->
    length hs = length es ->
    exists b, check_proof B pk (h0 :: hs) pf es e_primes label = Ok b.
  Proof.
    intros pk h0 hs pf es e_primes label Hpk Hh0 Hhs Hes Hep Hwf Lhs.
    destruct (check_decides pk h0 hs pf es e_primes label Hpk Hh0 Hhs Hes Hep Hwf Lhs) as (b & Eb & _).
    exists b. exact Eb.
  Qed.

  Hypothesis q_prime : prime q.

  Definition with_resp (pf : sproof B) (s : responses) : sproof B :=
    {| pf_t := pf_t B pf; pf_s := s; pf_cs := pf_cs B pf; pf_c_hats := pf_c_hats B pf |}.

  (* a variant of a well-formed proof is well formed when its changed responses are non-negative *)
  Ltac wf_resp Hwf :=
    let H := fresh in
    pose proof Hwf as H; unfold wf_proof in H |- *; cbv zeta in H |- *;
    unfold with_resp; cbn [pf_t pf_s pf_cs pf_c_hats s1 s2 s3 s4 s_hats s_primes];
    repeat split; try apply H; try lia.

  Lemma gpow_factor_unique Y s s' : mem Y -> b_gen B <> one -> 0 <= s < q -> 0 <= s' < q ->
    mulp (gpow s) Y = mulp (gpow s') Y -> s = s'.
  Proof.
    intros HY Hne Hs Hs' E. apply (pow_inj_range B mem L q_prime (b_gen B)); try assumption; [memt|].
    apply (mulp_cancel_l B mem L Y); [memt..|]. rewrite !(mulp_comm B mem L Y) by memt. exact E.
  Qed.

  Lemma chain_sh_unique c : b_gen B <> one -> forall shs shs' ths prevs cis sps,
    length shs' = length shs ->
    (length shs <= length ths)%nat -> (length shs <= length prevs)%nat ->
    (length shs <= length cis)%nat -> (length shs <= length sps)%nat ->
    Forall mem prevs -> Forall nonneg sps ->
    Forall (fun x => 0 <= x < q) shs -> Forall (fun x => 0 <= x < q) shs' ->
    Forall (chain_eq c) (combine ths (combine prevs (combine cis (combine shs sps)))) ->
    Forall (chain_eq c) (combine ths (combine prevs (combine cis (combine shs' sps)))) ->
    shs = shs'.
  Proof.
    intros Hne. induction shs as [|a shs IH]; intros shs' ths prevs cis sps L0 L1 L2 L3 L4 Hp Hsp Hr Hr' F1 F2.
    - destruct shs'; [reflexivity|discriminate].
    - destruct shs' as [|a' shs']; [discriminate|].
      destruct ths as [|th ths]; [cbn in L1; lia|]. destruct prevs as [|prev prevs]; [cbn in L2; lia|].
      destruct cis as [|ci cis]; [cbn in L3; lia|]. destruct sps as [|sp sps]; [cbn in L4; lia|].
      cbn [length] in *. cbn [combine] in F1, F2.
      inversion F1 as [|? ? E1 F1']; subst. inversion F2 as [|? ? E2 F2']; subst.
      inversion Hp as [|? ? Hprev Hp']; subst. inversion Hsp as [|? ? Hsp0 Hsp']; subst.
      inversion Hr as [|? ? Ha Hr0]; subst. inversion Hr' as [|? ? Ha' Hr0']; subst.
      unfold chain_eq in E1, E2.
      f_equal; [|apply (IH shs' ths prevs cis sps); try assumption; lia].
      apply (gpow_factor_unique (pow prev sp)); try assumption; [memt|]. rewrite <- E1. exact E2.
  Qed.

  Definition resp_agree (s s' : responses) : Prop :=
    (0 <= s1 s < q -> 0 <= s1 s' < q -> s1 s' = s1 s) /\
    (0 <= s2 s < q -> 0 <= s2 s' < q -> s2 s' = s2 s) /\
    (0 <= s3 s < q -> 0 <= s3 s' < q -> s3 s' = s3 s) /\
    (0 <= s4 s < q -> 0 <= s4 s' < q -> s4 s' = s4 s) /\
    (Forall (fun x => 0 <= x < q) (s_hats s) -> Forall (fun x => 0 <= x < q) (s_hats s') -> s_hats s' = s_hats s).

  (* with the commitments, the challenges and s_primes fixed, each equation leaves one canonical value for
     its response: equations 1, 2, 3 and the chain read  lhs = g^s * Y,  equation 4.2 reads  Y * g^s = rhs,
     with lhs, rhs and Y free of s *)
  Lemma responses_determined pk h0 hs pf s' es e_primes us c :
    mem h0 -> Forall mem hs -> Forall wf_ct es -> wf_proof pf -> b_gen B <> one ->
    Forall nonneg us -> 0 <= c ->
    lengths_ok pf es e_primes -> lengths_ok (with_resp pf s') es e_primes ->
    tw_equations pk h0 hs pf es e_primes us c ->
    tw_equations pk h0 hs (with_resp pf s') es e_primes us c ->
    s_primes s' = s_primes (pf_s B pf) ->
    resp_agree (pf_s B pf) s'.
  Proof.
    intros Hh0 Hhs Hes Hwf Hne Hus Hc Hl1 Hl2 H1 H2 Esp. unfold resp_agree.
    unfold wf_proof in Hwf. unfold tw_equations in H1, H2. unfold lengths_ok in Hl1, Hl2.
    cbv zeta in Hwf, H1, H2, Hl1, Hl2. unfold with_resp in H2, Hl2.
    cbn [pf_t pf_s pf_cs pf_c_hats] in H2, Hl2. rewrite Esp in H2.
    destruct Hwf as (Ht1 & Ht2 & Ht3 & Ht41 & Ht42 & Hth & Hs1 & Hs2 & Hs3 & Hs4 & Hsh & Hsp & Hcs & Hchs).
    destruct H1 as (A1 & A2 & A3 & _ & A5 & A6). destruct H2 as (B1 & B2 & B3 & _ & B5 & B6).
    destruct Hl1 as (N1 & N2 & N3 & N4 & N5 & N6 & N7). destruct Hl2 as (_ & _ & _ & _ & _ & M6 & _).
    pose proof (us_prod_nonneg us Hus) as Hu.
    pose proof (prodp_mem B mem L hs Hhs) as HPhs.
    pose proof (wf_ct_gr es Hes) as Heg.
    repeat split; intros Hr Hr'; symmetry.
    - refine (gpow_factor_unique _ _ _ _ Hne Hr Hr' (eq_trans (eq_sym A1) B1)). memt.
    - refine (gpow_factor_unique _ _ _ _ Hne Hr Hr' (eq_trans (eq_sym A2) B2)). memt.
    - refine (gpow_factor_unique _ _ _ _ Hne Hr Hr' (eq_trans (eq_sym A3) B3)).
      apply (prodp_mem B mem L), (powl_mem B mem L); assumption.
    - apply (pow_inj_range B mem L q_prime (b_gen B)); try assumption; [memt|].
      refine (mulp_cancel_l B mem L _ _ _ _ _ _ (eq_trans A5 (eq_sym B5))); [|memt..].
      memt. apply (prodp_powf_mem (@gr B)); assumption.
    - apply (chain_sh_unique c Hne _ _ (t_hats B (pf_t B pf)) (h0 :: pf_c_hats B pf) (pf_c_hats B pf)
               (s_primes (pf_s B pf))); try assumption; try (cbn [length]; lia).
      constructor; assumption.
  Qed.

  (* the challenges do not depend on the responses: an accepted proof and a variant with other responses
     face the same equations, so a variant that disagrees on a canonical response is rejected *)
  Lemma resp_binding pk h0 hs pf s' es e_primes label :
    mem pk -> mem h0 -> Forall mem hs -> Forall wf_ct es -> Forall wf_ct e_primes -> wf_proof pf ->
    length hs = length es -> b_gen B <> one ->
    check_proof B pk (h0 :: hs) pf es e_primes label = Ok true ->
    wf_proof (with_resp pf s') -> s_primes s' = s_primes (pf_s B pf) -> ~ resp_agree (pf_s B pf) s' ->
    check_proof B pk (h0 :: hs) (with_resp pf s') es e_primes label = Ok false.
  Proof.
    intros Hpk Hh0 Hhs Hes Hep Hwf Lhs Hne Hacc Hwf' Esp Hdis.
    destruct (check_decides pk h0 hs (with_resp pf s') es e_primes label Hpk Hh0 Hhs Hes Hep Hwf' Lhs)
      as ([|] & Eb & Hb); [exfalso; apply Hdis|exact Eb].
    apply check_proof_spec in Hacc; try assumption.
    destruct Hacc as [Hl1 H1]. destruct (proj1 Hb eq_refl) as [Hl2 H2].
    unfold with_resp in H2 at 2 3 4. cbn [pf_t pf_cs pf_c_hats] in H2.
    refine (responses_determined pk h0 hs pf s' es e_primes _ _ Hh0 Hhs Hes Hwf Hne _ _ Hl1 Hl2 H1 H2 Esp).
    - apply shuffle_us_ok.
    - apply (hash_range B mem L).
  Qed.

  Theorem check_proof_s1_binding : forall pk h0 hs pf es e_primes label s1',
    mem pk -> mem h0 -> Forall mem hs -> Forall wf_ct es -> Forall wf_ct e_primes -> wf_proof pf ->
    length hs = length es -> b_gen B <> one ->
    0 <= s1 (pf_s B pf) < q -> 0 <= s1' < q ->
    check_proof B pk (h0 :: hs) pf es e_primes label = Ok true ->
    s1' <> s1 (pf_s B pf) ->
    check_proof B pk (h0 :: hs)
      {| pf_t := pf_t B pf;
         pf_s := {| s1 := s1'; s2 := s2 (pf_s B pf); s3 := s3 (pf_s B pf); s4 := s4 (pf_s B pf);
                    s_hats := s_hats (pf_s B pf); s_primes := s_primes (pf_s B pf) |};
         pf_cs := pf_cs B pf; pf_c_hats := pf_c_hats B pf |} es e_primes label = Ok false.
  Proof.
    intros pk h0 hs pf es e_primes label s1' Hpk Hh0 Hhs Hes Hep Hwf Lhs Hne Hr Hr' Hacc Hd.
    apply (resp_binding pk h0 hs pf _ es e_primes label); try assumption; [wf_resp Hwf|reflexivity|].
    intros (D1 & D2 & D3 & D4 & D5). exact (Hd (D1 Hr Hr')).
  Qed.

  Theorem check_proof_s2_binding : forall pk h0 hs pf es e_primes label s2',
    mem pk -> mem h0 -> Forall mem hs -> Forall wf_ct es -> Forall wf_ct e_primes -> wf_proof pf ->
    length hs = length es -> b_gen B <> one ->
    0 <= s2 (pf_s B pf) < q -> 0 <= s2' < q ->
    check_proof B pk (h0 :: hs) pf es e_primes label = Ok true ->
    s2' <> s2 (pf_s B pf) ->
    check_proof B pk (h0 :: hs)
      {| pf_t := pf_t B pf;
         pf_s := {| s1 := s1 (pf_s B pf); s2 := s2'; s3 := s3 (pf_s B pf); s4 := s4 (pf_s B pf);
                    s_hats := s_hats (pf_s B pf); s_primes := s_primes (pf_s B pf) |};
         pf_cs := pf_cs B pf; pf_c_hats := pf_c_hats B pf |} es e_primes label = Ok false.
  Proof.
    intros pk h0 hs pf es e_primes label s2' Hpk Hh0 Hhs Hes Hep Hwf Lhs Hne Hr Hr' Hacc Hd.
    apply (resp_binding pk h0 hs pf _ es e_primes label); try assumption; [wf_resp Hwf|reflexivity|].
    intros (D1 & D2 & D3 & D4 & D5). exact (Hd (D2 Hr Hr')).
  Qed.

  Theorem check_proof_s3_binding : forall pk h0 hs pf es e_primes label s3',
    mem pk -> mem h0 -> Forall mem hs -> Forall wf_ct es -> Forall wf_ct e_primes -> wf_proof pf ->
    length hs = length es -> b_gen B <> one ->
    0 <= s3 (pf_s B pf) < q -> 0 <= s3' < q ->
    check_proof B pk (h0 :: hs) pf es e_primes label = Ok true ->
    s3' <> s3 (pf_s B pf) ->
    check_proof B pk (h0 :: hs)
      {| pf_t := pf_t B pf;
         pf_s := {| s1 := s1 (pf_s B pf); s2 := s2 (pf_s B pf); s3 := s3'; s4 := s4 (pf_s B pf);
                    s_hats := s_hats (pf_s B pf); s_primes := s_primes (pf_s B pf) |};
         pf_cs := pf_cs B pf; pf_c_hats := pf_c_hats B pf |} es e_primes label = Ok false.
  Proof.
    intros pk h0 hs pf es e_primes label s3' Hpk Hh0 Hhs Hes Hep Hwf Lhs Hne Hr Hr' Hacc Hd.
    apply (resp_binding pk h0 hs pf _ es e_primes label); try assumption; [wf_resp Hwf|reflexivity|].
    intros (D1 & D2 & D3 & D4 & D5). exact (Hd (D3 Hr Hr')).
  Qed.

  Theorem check_proof_s4_binding : forall pk h0 hs pf es e_primes label s4',
    mem pk -> mem h0 -> Forall mem hs -> Forall wf_ct es -> Forall wf_ct e_primes -> wf_proof pf ->
    length hs = length es -> b_gen B <> one ->
    0 <= s4 (pf_s B pf) < q -> 0 <= s4' < q ->
    check_proof B pk (h0 :: hs) pf es e_primes label = Ok true ->
    s4' <> s4 (pf_s B pf) ->
    check_proof B pk (h0 :: hs)
      {| pf_t := pf_t B pf;
         pf_s := {| s1 := s1 (pf_s B pf); s2 := s2 (pf_s B pf); s3 := s3 (pf_s B pf); s4 := s4';
                    s_hats := s_hats (pf_s B pf); s_primes := s_primes (pf_s B pf) |};
         pf_cs := pf_cs B pf; pf_c_hats := pf_c_hats B pf |} es e_primes label = Ok false.
  Proof.
    intros pk h0 hs pf es e_primes label s4' Hpk Hh0 Hhs Hes Hep Hwf Lhs Hne Hr Hr' Hacc Hd.
    apply (resp_binding pk h0 hs pf _ es e_primes label); try assumption; [wf_resp Hwf|reflexivity|].
    intros (D1 & D2 & D3 & D4 & D5). exact (Hd (D4 Hr Hr')).
  Qed.

  Theorem check_proof_s_hats_binding : forall pk h0 hs pf es e_primes label s_hats',
    mem pk -> mem h0 -> Forall mem hs -> Forall wf_ct es -> Forall wf_ct e_primes -> wf_proof pf ->
    length hs = length es -> b_gen B <> one ->
    Forall (fun x => 0 <= x < q) (s_hats (pf_s B pf)) -> Forall (fun x => 0 <= x < q) s_hats' ->
    check_proof B pk (h0 :: hs) pf es e_primes label = Ok true ->
    s_hats' <> s_hats (pf_s B pf) ->
    check_proof B pk (h0 :: hs)
      {| pf_t := pf_t B pf;
         pf_s := {| s1 := s1 (pf_s B pf); s2 := s2 (pf_s B pf); s3 := s3 (pf_s B pf); s4 := s4 (pf_s B pf);
                    s_hats := s_hats'; s_primes := s_primes (pf_s B pf) |};
         pf_cs := pf_cs B pf; pf_c_hats := pf_c_hats B pf |} es e_primes label = Ok false.
  Proof.
    intros pk h0 hs pf es e_primes label sh' Hpk Hh0 Hhs Hes Hep Hwf Lhs Hne Hr Hr' Hacc Hd.
    apply (resp_binding pk h0 hs pf _ es e_primes label); try assumption; [wf_resp Hwf; eapply Forall_impl; [|exact Hr']; cbv beta; intros; lia|reflexivity|].
    intros (D1 & D2 & D3 & D4 & D5). exact (Hd (D5 Hr Hr')).
  Qed.
End Spec.

Print Assumptions check_proof_spec.
Print Assumptions check_proof_total.
Print Assumptions check_proof_wrong_counts.
Print Assumptions check_proof_s1_binding.
Print Assumptions check_proof_s2_binding.
Print Assumptions check_proof_s3_binding.
Print Assumptions check_proof_s4_binding.
Print Assumptions check_proof_s_hats_binding.
