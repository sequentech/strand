(* Proofs/Corollaries.v — the API-level statements (public wrappers, ciphertext-bound proofs, verifiable
   decryption) derived from Proofs/ElgamalP.v and Proofs/SigmaP.v, for any lawful backend; and their
   instances at the multiplicative backends including plaintext encoding. *)
From Coq Require Import ZArith.
From Strand Require Import Base.ZUtil Model.Outcome Model.Backend Model.ZBackend Model.Zkp
  Proofs.Laws Proofs.ZLaws Proofs.ElgamalP Proofs.SigmaP Proofs.ZInst.
Open Scope Z_scope.

Section Generic.
  Variable B : Backend.
  Variable mem : E B -> Prop.
  Hypothesis L : Laws B mem.
  Notation pow := (b_pow B).

  Theorem schnorr_complete secret g label r :
    (forall b, g = Some b -> mem b) -> 0 <= secret -> 0 <= r ->
    schnorr_verify B (pow (base_or_gen B g) secret) g
      (schnorr_prove B secret (pow (base_or_gen B g) secret) g label r) label = true.
  Proof. intros. apply (schnorr_complete_private B mem L); assumption. Qed.

  Theorem cp_complete secret g1 g2 label r :
    (forall b, g1 = Some b -> mem b) -> mem g2 -> 0 <= secret -> 0 <= r ->
    cp_verify B (pow (base_or_gen B g1) secret) (pow g2 secret) g1 g2
      (cp_prove B secret (pow (base_or_gen B g1) secret) (pow g2 secret) g1 g2 label r) label = true.
  Proof. intros. apply (cp_complete_private B mem L); assumption. Qed.

  Theorem schnorr_default_explicit secret pub label r pf :
    schnorr_prove B secret pub None label r = schnorr_prove B secret pub (Some (b_gen B)) label r /\
    schnorr_verify B pub None pf label = schnorr_verify B pub (Some (b_gen B)) pf label.
  Proof. split; reflexivity. Qed.

  Theorem cp_default_explicit secret pub1 pub2 g2 label r pf :
    cp_prove B secret pub1 pub2 None g2 label r = cp_prove B secret pub1 pub2 (Some (b_gen B)) g2 label r /\
    cp_verify B pub1 pub2 None g2 pf label = cp_verify B pub1 pub2 (Some (b_gen B)) g2 pf label.
  Proof. split; reflexivity. Qed.

  Theorem encrypt_and_pok_ok sk m label r nonce :
    0 <= sk -> 0 <= r -> 0 <= nonce -> mem m ->
    let '(c, pf) := encrypt_and_pok B (pk_of_sk B sk) m label r nonce in
    decrypt B sk c = Ok m /\ encryption_popk_verify B (mhr c) (gr c) pf label = true.
  Proof.
    intros Hsk Hr Hn Hm. unfold encrypt_and_pok. split.
    - apply (decrypt_encrypt B mem L); assumption.
    - cbn [encrypt_with_randomness mhr gr]. unfold encryption_popk_verify, encryption_popk, b_gpow.
      apply (schnorr_complete_private B mem L r None); [discriminate|assumption|assumption].
  Qed.

  Theorem decrypt_and_prove_ok sk c label r :
    0 <= sk -> 0 <= r -> mem (mhr c) -> mem (gr c) ->
    exists d pf, decrypt_and_prove B sk (pk_of_sk B sk) c label r = Ok (d, pf) /\
      decrypt B sk c = Ok d /\
      verify_decryption B (pk_of_sk B sk) (decryption_factor B sk c) (mhr c) (gr c) pf label = true.
  Proof.
    intros Hsk Hr Hm Hg.
    destruct (decrypt_char B mem L sk c Hm Hg Hsk) as (i & D & _ & _ & Ei).
    exists (b_mulp B (mhr c) i). eexists.
    split; [unfold decrypt_and_prove, b_divp; cbv zeta; rewrite Ei; reflexivity|]. split; [exact D|].
    unfold verify_decryption, decryption_proof, decryption_factor, pk_of_sk, b_gpow.
    apply (cp_complete_private B mem L sk None (gr c)); [discriminate|assumption|assumption|assumption].
  Qed.

  (* soundness half that is a theorem: an accepted decryption proof satisfies both equations for the
     hashed challenge; KeymakerP.cp_special_soundness and extracted_factor_decrypts go on from the equations *)
  Theorem verify_decryption_spec pk f c pf label :
    mem pk -> mem f -> mem (mhr c) -> mem (gr c) -> mem (c_com1 B pf) -> mem (c_com2 B pf) ->
    0 <= c_chal B pf -> 0 <= c_resp B pf ->
    (verify_decryption B pk f (mhr c) (gr c) pf label = true <->
     c_chal B pf = cp_challenge B (b_gen B) (gr c) pk f (c_com1 B pf) (c_com2 B pf) (ctx_mhr_label B (mhr c) label) /\
     pow (b_gen B) (c_resp B pf) = b_mulp B (c_com1 B pf) (pow pk (c_chal B pf)) /\
     pow (gr c) (c_resp B pf) = b_mulp B (c_com2 B pf) (pow f (c_chal B pf))).
  Proof.
    intros. unfold verify_decryption.
    apply (cp_verify_spec B mem L pk f None (gr c) pf); try assumption. discriminate.
  Qed.
End Generic.

Section Mult.
  Variable K : Kernel.
  Variable fl : flavor.
  Variable P : Params.
  Hypothesis S : SafePrime P.
  Notation B := (ZB K fl P).
  Let L : Laws B (member P) := ZB_laws K fl P (sp_good P S).

  Theorem elgamal_roundtrip sk r pt : 0 <= sk -> 0 <= r -> 0 <= pt < p_q P - 1 ->
    exists e d, encode K P pt = Ok e /\
                decrypt B sk (encrypt_with_randomness B (pk_of_sk B sk) e r) = Ok d /\
                decode P d = Ok pt.
  Proof.
    intros Hsk Hr Hpt. destruct (encode_decode K P S pt Hpt) as (e & He & Hm & Hd).
    exists e, e. split; [exact He|]. split; [|exact Hd].
    apply (decrypt_encrypt B (member P) L); assumption.
  Qed.
End Mult.
