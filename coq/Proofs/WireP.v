(* Proofs/WireP.v — the wire formats of Model/Wire.v are codecs: what a writer produces is read back, and nothing
   shorter or longer is.  (The readers are not injective: like BigUint::from_bytes_le they accept an integer whose
   bytes carry zero padding, so two byte strings can decode to one value.)
   For every wire type T in {E, X, P, ct, pk, sk, schnorr, cp, vecE, vecX, vecC, vecP, vecCP, proof} three facts in
   the terms of Proofs/CodecP.v, where vT is what a writer is given and wT what a reader returns (they differ for P
   and proof only):
     enc_T : vT v -> enc rd_T v (wr_T v), with its halves rt_T : RT vT wr_T rd_T and pf_T : PF vT wr_T rd_T;
     val_T : VAL wT rd_T, only members and canonical exponents decode;
     np_T  : np_reader rd_T.
   A record type is a chain of fields, so each fact is one enc_bind, inv_bind or np_bind per field; the vector types
   get theirs from enc_svec, val_svec, np_svec.  For E, pk and the vectors pf_T is proved apart from enc_T: there a
   truncated encoding is refused by the length framing before anything is decoded, so pf_T needs less than enc_T
   does (for E not 1 < p, for a vector nothing of its items).
   Each type then has the six consequences for its strict decoder de_T: de_ser_T (decoding inverts writing),
   de_trailing_T (appended bytes are refused), ser_inj_T (the writer is injective), de_trunc_T (a strict prefix is
   refused), de_val_T (what decodes is valid) and de_np_T (no input makes it panic).  For the five StrandVector
   instances Model/Wire.v has no de_*; there de_T means [strict rd_T].  sk is stated on pairs (value, pk_element)
   with writer [wr_skp].
   val_T asks [bytes_ok bs] only because the model's bytes are arbitrary Z and [le_int] of negative "bytes" can be
   negative: it is used for "0 <= exponent" and for the plaintext bound.  The element-only facts val_T_any, de_val_T_any hold
   for arbitrary Z lists.

   Size hypotheses.  The section is parametric in a byte budget N with 1 <= N <= 4294967295 and
   p < 2^(8*N); the instance N = 4294967295 is the bound "p < 2^(8*4294967295)" (see the end of the
   file).  The literal power is deliberately kept out of every proof context: lia, auto and
   assumption try to evaluate it (a 4 GiB number).  Each theorem depends only on the hypotheses it
   needs ([Proof using]): val_T needs only 1 < p, np_T nothing, enc_T the size bounds; K is named there where a
   statement about writers alone, which take no kernel, is proved through a reader.  Where a proof calls lia
   the hypotheses it must not depend on are cleared first: lia takes every arithmetic hypothesis in sight into
   its proof term. *)
From Coq Require Import ZArith List Bool Lia.
From Strand Require Import Base.ZUtil Model.Outcome Model.Codec Model.ZBackend Model.Zkp
  Model.Wire Proofs.ZLaws Proofs.CodecP.
Import ListNotations.
Open Scope Z_scope.

(* the shape of rd_E and rd_X: a big integer as Vec<u8>, then a decoder [dec] of its bytes *)
Definition rd_int (dec : bytes -> outcome Z) : reader Z := rd_bind rd_vec_u8 (fun b => rd_lift (dec b)).

Section W.
  Set Default Proof Using "Type".
  Variable K : Kernel.
  Variable fl : flavor.
  Variable P : Params.
  (* byte budget: p fits in N bytes, N <= u32::MAX *)
  Variable N : Z.
  Hypothesis N_ok : 1 <= N <= 4294967295.
  Hypothesis p_gt1 : 1 < p_p P.
  Hypothesis p_small : p_p P < 2 ^ (8 * N).
  Hypothesis q_le : 0 < p_q P <= p_p P.
  Notation p := (p_p P).
  Notation q := (p_q P).
  Notation B := (ZB K fl P).

  Lemma int_bytes x : 0 <= x -> int_of_bytes fl (bytes_of_int fl x) = x.
  Proof.
    intro Hx. unfold int_of_bytes, bytes_of_int. destruct fl.
    - apply le_bytes_min_int, Hx.
    - apply be_digits_int, Hx.
  Qed.

  Lemma bytes_of_int_ok x : bytes_ok (bytes_of_int fl x).
  Proof. unfold bytes_of_int. destruct fl; [apply le_bytes_min_ok|apply be_digits_ok]. Qed.

  Lemma bytes_of_int_len x : x < 2 ^ (8 * N) -> Z.of_nat (length (bytes_of_int fl x)) <= N.
  Proof using N_ok.
    intro Hx. pose proof N_ok as HL. rewrite pow256 in Hx by lia.
    unfold bytes_of_int. destruct fl.
    - apply (le_bytes_min_len N x ltac:(lia) Hx).
    - apply (be_digits_len N x ltac:(lia) Hx).
  Qed.

  Lemma bytes_of_int_u32 x : x < 2 ^ (8 * N) -> Z.of_nat (length (bytes_of_int fl x)) < 2 ^ 32.
  Proof using N_ok. intro Hx. pose proof N_ok. pose proof (bytes_of_int_len x Hx). lia. Qed.

  Lemma int_of_bytes_bound bs : bytes_ok bs -> 0 <= int_of_bytes fl bs < 256 ^ Z.of_nat (length bs).
  Proof. intro H. unfold int_of_bytes. destruct fl; [apply le_int_bound|apply be_int_bound]; exact H. Qed.

  Lemma legendre_1 a : legendre K P a = 1 <-> a ^ q mod p = 1.
  Proof using p_gt1.
    clear q_le p_small.
    unfold legendre. rewrite k_powm_ok, powm_spec by lia.
    destruct (Z.eqb_spec (a ^ q mod p) 0) as [E0|E0]; [lia|].
    destruct (Z.eqb_spec (a ^ q mod p) 1) as [E1|E1]; lia.
  Qed.

  Theorem element_from_int_spec i v :
    element_from_int K P i = Ok v <-> v = i /\ 1 <= v < p /\ v ^ q mod p = 1.
  Proof using p_gt1.
    clear N_ok p_small q_le.
    unfold element_from_int. rewrite Z.geb_leb.
    destruct (Z.ltb_spec i 1) as [H1|H1]; cbn [orb].
    { split; [discriminate|]. intros (-> & ? & _). lia. }
    destruct (Z.leb_spec p i) as [H2|H2].
    { split; [discriminate|]. intros (-> & ? & _). lia. }
    pose proof (legendre_1 i) as HL.
    destruct (Z.eqb_spec (legendre K P i) 1) as [E|E]; cbn [negb].
    - split; [intro H; injection H as <-|intros (-> & _); reflexivity].
      split; [reflexivity|]. split; [lia|]. apply HL, E.
    - split; [discriminate|]. intros (-> & _ & Hm). apply HL in Hm. contradiction.
  Qed.

  Theorem element_from_bytes_spec bs v :
    element_from_bytes K fl P bs = Ok v <->
    v = int_of_bytes fl bs /\ 1 <= v < p /\ v ^ q mod p = 1.
  Proof using p_gt1. unfold element_from_bytes. apply element_from_int_spec. Qed.

  Theorem exp_from_bytes_spec bs v :
    exp_from_bytes fl P bs = Ok v <-> v = int_of_bytes fl bs /\ v < q.
  Proof.
    clear N_ok p_gt1 p_small q_le.
    unfold exp_from_bytes. rewrite Z.geb_leb.
    destruct (Z.leb_spec q (int_of_bytes fl bs)) as [H|H].
    - split; [discriminate|]. intros [-> ?]. lia.
    - split; [intro E; injection E as <-; split; [reflexivity|exact H]|intros [-> _]; reflexivity].
  Qed.

  Lemma element_from_bytes_np bs : element_from_bytes K fl P bs <> Panic.
  Proof.
    unfold element_from_bytes, element_from_int. destruct (_ || _); [discriminate|].
    destruct (negb _); discriminate.
  Qed.

  Lemma exp_from_bytes_np bs : exp_from_bytes fl P bs <> Panic.
  Proof. unfold exp_from_bytes. destruct (_ >=? _); discriminate. Qed.

  Definition vE (a : Z) : Prop := member P a.
  Definition vX (x : Z) : Prop := 0 <= x < q.
  Definition vP (m : Z) : Prop := 0 <= m < 2 ^ (8 * N).

  Lemma vE_lt a : vE a -> 0 <= a < 2 ^ (8 * N).
  Proof using p_small. intros [H _]. lia. Qed.
  Lemma vX_lt x : vX x -> 0 <= x < 2 ^ (8 * N).
  Proof using p_small q_le. unfold vX. lia. Qed.

  (* [VAL v rd] unfolds to [INV bytes_ok v rd] of Proofs/CodecP.v *)
  Definition VAL {A} (v : A -> Prop) (rd : reader A) : Prop :=
    forall bs a r, bytes_ok bs -> rd bs = Ok (a, r) -> v a /\ bytes_ok r.

  Lemma enc_int (dec : bytes -> outcome Z) a :
    0 <= a < 2 ^ (8 * N) -> dec (bytes_of_int fl a) = Ok a -> enc (rd_int dec) a (z_ser_int fl a).
  Proof using N_ok.
    intros Ha E. refine (enc_last (enc_vec_u8 _ (bytes_of_int_u32 a (proj2 Ha))) (fun r => _)).
    unfold rd_lift. rewrite E. reflexivity.
  Qed.

  Lemma enc_E a : vE a -> enc (rd_E K fl P) a (wr_E fl a).
  Proof using N_ok p_gt1 p_small.
    intro Ha. pose proof (vE_lt a Ha) as Hl. apply (enc_int _ a Hl).
    apply element_from_bytes_spec. rewrite int_bytes by lia. destruct Ha as [? ?]. auto.
  Qed.

  Theorem rt_E : RT vE (wr_E fl) (rd_E K fl P).
  Proof using N_ok p_gt1 p_small. exact (enc_rt enc_E). Qed.

  (* a truncated encoding is refused by [rd_vec_u8], before the membership test is reached: 1 < p is not needed *)
  Theorem pf_E : PF vE (wr_E fl) (rd_E K fl P).
  Proof using N_ok p_small.
    intros a b x Ha.
    exact (enc_first_pf (fun b => rd_lift (element_from_bytes K fl P b))
             (enc_vec_u8 _ (bytes_of_int_u32 a (proj2 (vE_lt a Ha)))) b x).
  Qed.

  Lemma inv_E Q : splits Q -> INV Q vE (rd_E K fl P).
  Proof using p_gt1.
    intro HQ. refine (inv_bind (inv_vec_u8 Q HQ) (fun b _ => inv_lift (fun a E => _))).
    apply element_from_bytes_spec in E as (_ & ? & ?). split; assumption.
  Qed.

  Theorem val_E : VAL vE (rd_E K fl P).
  Proof using p_gt1. exact (inv_E _ bytes_ok_split). Qed.

  Theorem val_E_any bs a rest : rd_E K fl P bs = Ok (a, rest) -> member P a.
  Proof using p_gt1. intro H. exact (proj1 (inv_E _ any_split bs a rest I H)). Qed.

  Theorem np_E : np_reader (rd_E K fl P).
  Proof. exact (np_bind rd_vec_u8_np (fun b => np_lift (element_from_bytes_np b))). Qed.

  Lemma enc_X a : vX a -> enc (rd_X fl P) a (wr_X fl a).
  Proof using N_ok p_small q_le.
    intro Ha. pose proof (vX_lt a Ha) as Hl. apply (enc_int _ a Hl).
    apply exp_from_bytes_spec. rewrite int_bytes by lia. split; [reflexivity|apply Ha].
  Qed.

  Theorem rt_X : RT vX (wr_X fl) (rd_X fl P).
  Proof using N_ok p_small q_le. exact (enc_rt enc_X). Qed.

  Theorem pf_X : PF vX (wr_X fl) (rd_X fl P).
  Proof using N_ok p_small q_le. exact (enc_pf enc_X). Qed.

  Theorem val_X : VAL vX (rd_X fl P).
  Proof.
    clear N_ok p_gt1 p_small q_le.
    refine (inv_bind val_vec_u8 (fun b Hb => inv_lift (fun a E => _))).
    apply exp_from_bytes_spec in E as [-> Hq]. pose proof (int_of_bytes_bound b (proj1 Hb)). unfold vX. lia.
  Qed.

  (* without [bytes_ok] only the upper bound survives *)
  Theorem val_X_any bs a rest : rd_X fl P bs = Ok (a, rest) -> a < q.
  Proof.
    intro H. refine (proj1 (inv_bind (v := fun x => x < q) (inv_vec_u8 _ any_split) (fun b _ => inv_lift (fun a E => _)) bs a rest I H)).
    apply exp_from_bytes_spec in E as [_ ?]. assumption.
  Qed.

  Theorem np_X : np_reader (rd_X fl P).
  Proof. exact (np_bind rd_vec_u8_np (fun b => np_lift (exp_from_bytes_np b))). Qed.

  Lemma wr_P_malachite m : wr_P Malachite m = wr_vec u16le (be_digits m).
  Proof. reflexivity. Qed.

  Lemma enc_P m : vP m -> enc (rd_P fl) m (wr_P fl m).
  Proof using N_ok.
    intros [Hm0 Hm]. pose proof (bytes_of_int_u32 m Hm) as Hlen. pose proof (bytes_of_int_ok m) as Hok.
    unfold rd_P, wr_P. unfold bytes_of_int in Hlen, Hok. destruct fl.
    - refine (enc_last (enc_vec_u8 _ Hlen) (fun r => _)). unfold rd_ret. rewrite le_bytes_min_int by exact Hm0. reflexivity.
    - refine (enc_last (enc_vec 2 rd_u16 u16le _ Hlen _ _) (fun r => _)).
      + intros a _. rewrite u16le_len. lia.
      + unfold bytes_ok in Hok. rewrite Forall_forall in Hok.
        intros a Ha. apply enc_u16. apply Hok in Ha. lia.
      + rewrite (proj2 (proj1 (bytes_ok_ltb _) Hok)), be_digits_int by exact Hm0. reflexivity.
  Qed.

  Theorem rt_P : RT vP (wr_P fl) (rd_P fl).
  Proof using N_ok. exact (enc_rt enc_P). Qed.

  Theorem pf_P : PF vP (wr_P fl) (rd_P fl).
  Proof using N_ok. exact (enc_pf enc_P). Qed.

  (* what a decoded plaintext satisfies: non-negative, at most u32::MAX base-256 digits.  A reader knows nothing of
     the budget N of the writer's side ([vP]): the digit count is a u32, hence the literal 4294967295.  (The bound is
     kept existential so that no proof ever meets the literal 2^(8*4294967295).) *)
  Definition wP (m : Z) : Prop := exists n, 0 <= n <= 4294967295 /\ 0 <= m < 2 ^ (8 * n).

  Lemma wP_intro n m : Z.of_nat n < 2 ^ 32 -> 0 <= m < 256 ^ Z.of_nat n -> wP m.
  Proof. clear N_ok p_gt1 p_small q_le. intros Hn Hm. exists (Z.of_nat n). rewrite pow256 by lia. split; lia. Qed.

  Lemma wP_vP m : N = 4294967295 -> wP m -> vP m.
  Proof.
    intros HN (n & Hn & Hm). unfold vP. split; [lia|].
    eapply Z.lt_le_trans; [apply Hm|]. apply Z.pow_le_mono_r; lia.
  Qed.

  Lemma vP_wP m : vP m -> wP m.
  Proof using N_ok. intro H. exists N. pose proof N_ok. unfold vP in H. split; lia. Qed.

  Theorem val_P : VAL wP (rd_P fl).
  Proof.
    clear N_ok p_gt1 p_small q_le.
    unfold rd_P. destruct fl.
    - refine (inv_bind val_vec_u8 (fun b Hb => inv_ret _)).
      exact (wP_intro _ _ (proj2 Hb) (le_int_bound b (proj1 Hb))).
    - apply (inv_bind (inv_vec bytes_ok _ (fun d => 0 <= d) 2 rd_u16 val_u32
                         (inv_weaken (val_le 2) (fun d Hd => proj1 Hd)))).
      intros l (Hl & n & Hn & L).
      destruct (forallb _ l) eqn:Hf; [apply inv_ret|intros bs a r _ E; discriminate E].
      pose proof (proj2 (bytes_ok_ltb l) (conj Hl Hf)) as Hds.
      eapply wP_intro; [|apply be_int_bound, Hds]. lia.
  Qed.

  Theorem np_P : np_reader (rd_P fl).
  Proof.
    unfold rd_P. destruct fl.
    - exact (np_bind rd_vec_u8_np (fun b => np_ret)).
    - exact (np_bind (rd_vec_np 2 rd_u16 rd_u16_np) (fun l => np_guard np_ret)).
  Qed.

  (* honest vectors: u32 count, every item valid and short enough for its own u32 length prefix *)
  Definition vvec {A} (v : A -> Prop) (wr : A -> bytes) (l : list A) : Prop :=
    Z.of_nat (length l) < 2 ^ 32 /\ Forall (fun a => v a /\ Z.of_nat (length (wr a)) < 2 ^ 32) l.

  Lemma vvec_intro {A} (v : A -> Prop) (wr : A -> bytes) bound l :
    (forall a, v a -> Z.of_nat (length (wr a)) <= bound) -> bound < 2 ^ 32 ->
    Z.of_nat (length l) < 2 ^ 32 -> Forall v l -> vvec v wr l.
  Proof.
    clear N_ok p_gt1 p_small q_le.
    intros Hb Hbd Hl Hf. split; [exact Hl|]. rewrite Forall_forall in *. intros a Ha.
    split; [apply Hf, Ha|]. specialize (Hb a (Hf a Ha)). lia.
  Qed.

  Lemma vvec_forall {A} (v : A -> Prop) wr l : vvec v wr l -> Forall v l.
  Proof. intros [_ H]. rewrite Forall_forall in *. intros a Ha. apply H, Ha. Qed.

  (* rd_svec is [rd_items] of Proofs/CodecP.v *)
  Lemma enc_svec {A} (v : A -> Prop) wr rd l : RT v wr rd -> vvec v wr l -> enc (rd_svec rd) l (wr_svec wr l).
  Proof. intros H [Hl Hf]. exact (enc_rd_items v wr rd l H Hl Hf). Qed.

  Lemma rt_svec {A} (v : A -> Prop) wr rd : RT v wr rd -> RT (vvec v wr) (wr_svec wr) (rd_svec rd).
  Proof. intro H. exact (enc_rt (fun l => enc_svec v wr rd l H)). Qed.

  Lemma pf_svec {A} (v : A -> Prop) wr (rd : reader A) : PF (vvec v wr) (wr_svec wr) (rd_svec rd).
  Proof. intros l b x [Hl Hf]. exact (pf_rd_items wr rd l Hl (Forall_impl _ (fun a => @proj2 _ _) Hf) b x). Qed.

  Lemma val_svec {A} (v : A -> Prop) rd : VAL v rd -> VAL (Forall v) (rd_svec rd).
  Proof. exact (inv_rd_items _ v rd bytes_ok_split). Qed.

  Lemma np_svec {A} (rd : reader A) : np_reader rd -> np_reader (rd_svec rd).
  Proof. exact (np_rd_items rd). Qed.

  Definition v_vecE := vvec vE (wr_E fl).
  Definition v_vecX := vvec vX (wr_X fl).
  Definition v_vecP := vvec vP (wr_P fl).

  Lemma enc_vecE l : v_vecE l -> enc (rd_vecE K fl P) l (wr_vecE fl l).
  Proof using N_ok p_gt1 p_small. exact (enc_svec _ _ _ l rt_E). Qed.
  Lemma enc_vecX l : v_vecX l -> enc (rd_vecX fl P) l (wr_vecX fl l).
  Proof using N_ok p_small q_le. exact (enc_svec _ _ _ l rt_X). Qed.

  Theorem rt_vecE : RT v_vecE (wr_vecE fl) (rd_vecE K fl P).
  Proof using N_ok p_gt1 p_small. exact (rt_svec _ _ _ rt_E). Qed.
  Theorem rt_vecX : RT v_vecX (wr_vecX fl) (rd_vecX fl P).
  Proof using N_ok p_small q_le. exact (rt_svec _ _ _ rt_X). Qed.
  Theorem rt_vecP : RT v_vecP (wr_vecP fl) (rd_vecP fl).
  Proof using N_ok. exact (rt_svec _ _ _ rt_P). Qed.

  Theorem pf_vecE : PF v_vecE (wr_vecE fl) (rd_vecE K fl P).
  Proof. exact (pf_svec _ _ _). Qed.
  Theorem pf_vecX : PF v_vecX (wr_vecX fl) (rd_vecX fl P).
  Proof. exact (pf_svec _ _ _). Qed.
  Theorem pf_vecP : PF v_vecP (wr_vecP fl) (rd_vecP fl).
  Proof. exact (pf_svec _ _ _). Qed.

  Theorem val_vecE : VAL (Forall vE) (rd_vecE K fl P).
  Proof using p_gt1. exact (val_svec _ _ val_E). Qed.
  Theorem val_vecX : VAL (Forall vX) (rd_vecX fl P).
  Proof. exact (val_svec _ _ val_X). Qed.
  Theorem val_vecP : VAL (Forall wP) (rd_vecP fl).
  Proof. exact (val_svec _ _ val_P). Qed.
  Theorem val_vecE_any bs l r : rd_vecE K fl P bs = Ok (l, r) -> Forall (member P) l.
  Proof using p_gt1.
    intro H. exact (proj1 (inv_rd_items _ _ _ any_split (inv_E _ any_split) bs l r I H)).
  Qed.

  Theorem np_vecE : np_reader (rd_vecE K fl P).
  Proof. exact (np_svec _ np_E). Qed.
  Theorem np_vecX : np_reader (rd_vecX fl P).
  Proof. exact (np_svec _ np_X). Qed.
  Theorem np_vecP : np_reader (rd_vecP fl).
  Proof. exact (np_svec _ np_P). Qed.

  Definition v_ct (c : ctext B) : Prop := vE (mhr c) /\ vE (gr c).

  Lemma enc_ct c : v_ct c -> enc (rd_ct K fl P) c (wr_ct K fl P c).
  Proof using N_ok p_gt1 p_small.
    destruct c as [a b]. intros [Ha Hb].
    exact (enc_bind (enc_E a Ha) (enc_last (enc_E b Hb) (fun _ => eq_refl))).
  Qed.

  Theorem rt_ct : RT v_ct (wr_ct K fl P) (rd_ct K fl P).
  Proof using N_ok p_gt1 p_small. exact (enc_rt enc_ct). Qed.

  Theorem pf_ct : PF v_ct (wr_ct K fl P) (rd_ct K fl P).
  Proof using N_ok p_gt1 p_small. exact (enc_pf enc_ct). Qed.

  Lemma inv_ct Q : splits Q -> INV Q v_ct (rd_ct K fl P).
  Proof using p_gt1.
    intro HQ. exact (inv_bind (inv_E Q HQ) (fun a Ha => inv_bind (inv_E Q HQ) (fun b Hb => inv_ret (conj Ha Hb)))).
  Qed.

  Theorem val_ct : VAL v_ct (rd_ct K fl P).
  Proof using p_gt1. exact (inv_ct _ bytes_ok_split). Qed.

  Theorem val_ct_any bs c r : rd_ct K fl P bs = Ok (c, r) -> member P (mhr c) /\ member P (gr c).
  Proof using p_gt1. intro H. exact (proj1 (inv_ct _ any_split bs c r I H)). Qed.

  Theorem np_ct : np_reader (rd_ct K fl P).
  Proof. exact (np_bind np_E (fun _ => np_bind np_E (fun _ => np_ret))). Qed.

  Theorem rt_pk : RT vE (wr_pk fl) (rd_pk K fl P).
  Proof using N_ok p_gt1 p_small. exact rt_E. Qed.
  Theorem pf_pk : PF vE (wr_pk fl) (rd_pk K fl P).
  Proof using N_ok p_small. exact pf_E. Qed.
  Theorem val_pk : VAL vE (rd_pk K fl P).
  Proof using p_gt1. exact val_E. Qed.
  Theorem val_pk_any bs a rest : rd_pk K fl P bs = Ok (a, rest) -> member P a.
  Proof using p_gt1. exact (val_E_any bs a rest). Qed.
  Theorem np_pk : np_reader (rd_pk K fl P).
  Proof. exact np_E. Qed.

  (* PrivateKey { value, pk_element } as a pair *)
  Definition wr_skp (vp : Z * Z) : bytes := wr_sk fl (fst vp) (snd vp).
  Definition v_sk (vp : Z * Z) : Prop := vX (fst vp) /\ vE (snd vp).

  Lemma enc_sk vp : v_sk vp -> enc (rd_sk K fl P) vp (wr_skp vp).
  Proof using N_ok p_gt1 p_small q_le.
    destruct vp as [x e]. intros [Hx He].
    exact (enc_bind (enc_X x Hx) (enc_last (enc_E e He) (fun _ => eq_refl))).
  Qed.

  Theorem rt_sk : RT v_sk wr_skp (rd_sk K fl P).
  Proof using N_ok p_gt1 p_small q_le. exact (enc_rt enc_sk). Qed.

  Theorem pf_sk : PF v_sk wr_skp (rd_sk K fl P).
  Proof using N_ok p_gt1 p_small q_le. exact (enc_pf enc_sk). Qed.

  Theorem val_sk : VAL v_sk (rd_sk K fl P).
  Proof using p_gt1.
    exact (inv_bind val_X (fun x Hx => inv_bind val_E (fun e He => inv_ret (conj Hx He)))).
  Qed.

  Theorem np_sk : np_reader (rd_sk K fl P).
  Proof. exact (np_bind np_X (fun _ => np_bind np_E (fun _ => np_ret))). Qed.

  Definition v_schnorr (s : schnorr B) : Prop :=
    vE (s_com B s) /\ vX (s_chal B s) /\ vX (s_resp B s).

  Lemma enc_schnorr s : v_schnorr s -> enc (rd_schnorr K fl P) s (wr_schnorr K fl P s).
  Proof using N_ok p_gt1 p_small q_le.
    destruct s as [a c s]. intros (Ha & Hc & Hs).
    exact (enc_bind (enc_E a Ha) (enc_bind (enc_X c Hc) (enc_last (enc_X s Hs) (fun _ => eq_refl)))).
  Qed.

  Theorem rt_schnorr : RT v_schnorr (wr_schnorr K fl P) (rd_schnorr K fl P).
  Proof using N_ok p_gt1 p_small q_le. exact (enc_rt enc_schnorr). Qed.

  Theorem pf_schnorr : PF v_schnorr (wr_schnorr K fl P) (rd_schnorr K fl P).
  Proof using N_ok p_gt1 p_small q_le. exact (enc_pf enc_schnorr). Qed.

  Theorem val_schnorr : VAL v_schnorr (rd_schnorr K fl P).
  Proof using p_gt1.
    exact (inv_bind val_E (fun a Ha => inv_bind val_X (fun c Hc => inv_bind val_X (fun s Hs =>
           inv_ret (conj Ha (conj Hc Hs)))))).
  Qed.

  Theorem np_schnorr : np_reader (rd_schnorr K fl P).
  Proof. exact (np_bind np_E (fun _ => np_bind np_X (fun _ => np_bind np_X (fun _ => np_ret)))). Qed.

  Definition v_cp (s : cproof B) : Prop :=
    vE (c_com1 B s) /\ vE (c_com2 B s) /\ vX (c_chal B s) /\ vX (c_resp B s).

  Lemma enc_cp s : v_cp s -> enc (rd_cp K fl P) s (wr_cp K fl P s).
  Proof using N_ok p_gt1 p_small q_le.
    destruct s as [a b c s]. intros (Ha & Hb & Hc & Hs).
    exact (enc_bind (enc_E a Ha) (enc_bind (enc_E b Hb) (enc_bind (enc_X c Hc)
           (enc_last (enc_X s Hs) (fun _ => eq_refl))))).
  Qed.

  Theorem rt_cp : RT v_cp (wr_cp K fl P) (rd_cp K fl P).
  Proof using N_ok p_gt1 p_small q_le. exact (enc_rt enc_cp). Qed.

  Theorem pf_cp : PF v_cp (wr_cp K fl P) (rd_cp K fl P).
  Proof using N_ok p_gt1 p_small q_le. exact (enc_pf enc_cp). Qed.

  Theorem val_cp : VAL v_cp (rd_cp K fl P).
  Proof using p_gt1.
    exact (inv_bind val_E (fun a Ha => inv_bind val_E (fun b Hb => inv_bind val_X (fun c Hc =>
           inv_bind val_X (fun s Hs => inv_ret (conj Ha (conj Hb (conj Hc Hs)))))))).
  Qed.

  Theorem np_cp : np_reader (rd_cp K fl P).
  Proof.
    exact (np_bind np_E (fun _ => np_bind np_E (fun _ => np_bind np_X (fun _ => np_bind np_X (fun _ => np_ret))))).
  Qed.

  Definition v_vecC := vvec v_ct (wr_ct K fl P).
  Definition v_vecCP := vvec v_cp (wr_cp K fl P).

  Theorem rt_vecC : RT v_vecC (wr_vecC K fl P) (rd_vecC K fl P).
  Proof using N_ok p_gt1 p_small. exact (rt_svec _ _ _ rt_ct). Qed.
  Theorem rt_vecCP : RT v_vecCP (wr_vecCP K fl P) (rd_vecCP K fl P).
  Proof using N_ok p_gt1 p_small q_le. exact (rt_svec _ _ _ rt_cp). Qed.
  Theorem pf_vecC : PF v_vecC (wr_vecC K fl P) (rd_vecC K fl P).
  Proof. exact (pf_svec _ _ _). Qed.
  Theorem pf_vecCP : PF v_vecCP (wr_vecCP K fl P) (rd_vecCP K fl P).
  Proof. exact (pf_svec _ _ _). Qed.
  Theorem val_vecC : VAL (Forall v_ct) (rd_vecC K fl P).
  Proof using p_gt1. exact (val_svec _ _ val_ct). Qed.
  Theorem val_vecCP : VAL (Forall v_cp) (rd_vecCP K fl P).
  Proof using p_gt1. exact (val_svec _ _ val_cp). Qed.
  Theorem val_vecC_any bs l r : rd_vecC K fl P bs = Ok (l, r) ->
    Forall (fun c : ctext B => member P (mhr c) /\ member P (gr c)) l.
  Proof using p_gt1.
    intro H. exact (proj1 (inv_rd_items _ _ _ any_split (inv_ct _ any_split) bs l r I H)).
  Qed.
  Theorem np_vecC : np_reader (rd_vecC K fl P).
  Proof. exact (np_svec _ np_ct). Qed.
  Theorem np_vecCP : np_reader (rd_vecCP K fl P).
  Proof. exact (np_svec _ np_cp). Qed.

  Definition v_proof (w : sproof) : Prop :=
    vE (sp_t1 w) /\ vE (sp_t2 w) /\ vE (sp_t3 w) /\ vE (sp_t41 w) /\ vE (sp_t42 w) /\
    v_vecE (sp_t_hats w) /\
    vX (sp_s1 w) /\ vX (sp_s2 w) /\ vX (sp_s3 w) /\ vX (sp_s4 w) /\
    v_vecX (sp_s_hats w) /\ v_vecX (sp_s_primes w) /\
    v_vecE (sp_cs w) /\ v_vecE (sp_c_hats w).

  Definition w_proof (w : sproof) : Prop :=
    vE (sp_t1 w) /\ vE (sp_t2 w) /\ vE (sp_t3 w) /\ vE (sp_t41 w) /\ vE (sp_t42 w) /\
    Forall vE (sp_t_hats w) /\
    vX (sp_s1 w) /\ vX (sp_s2 w) /\ vX (sp_s3 w) /\ vX (sp_s4 w) /\
    Forall vX (sp_s_hats w) /\ Forall vX (sp_s_primes w) /\
    Forall vE (sp_cs w) /\ Forall vE (sp_c_hats w).

  Lemma v_proof_w_proof w : v_proof w -> w_proof w.
  Proof.
    intros (H1 & H2 & H3 & H4 & H5 & H6 & H7 & H8 & H9 & H10 & H11 & H12 & H13 & H14).
    unfold w_proof; repeat (split; [first [assumption | eapply vvec_forall; eassumption]|]); eapply vvec_forall; eassumption.
  Qed.

  Lemma enc_proof w : v_proof w -> enc (rd_proof K fl P) w (wr_proof fl w).
  Proof using N_ok p_gt1 p_small q_le.
    destruct w. intros (H1 & H2 & H3 & H4 & H5 & H6 & H7 & H8 & H9 & H10 & H11 & H12 & H13 & H14).
    exact (enc_bind (enc_E _ H1) (enc_bind (enc_E _ H2) (enc_bind (enc_E _ H3) (enc_bind (enc_E _ H4)
          (enc_bind (enc_E _ H5) (enc_bind (enc_vecE _ H6)
          (enc_bind (enc_X _ H7) (enc_bind (enc_X _ H8) (enc_bind (enc_X _ H9) (enc_bind (enc_X _ H10)
          (enc_bind (enc_vecX _ H11) (enc_bind (enc_vecX _ H12)
          (enc_bind (enc_vecE _ H13) (enc_last (enc_vecE _ H14) (fun _ => eq_refl))))))))))))))).
  Qed.

  Theorem rt_proof : RT v_proof (wr_proof fl) (rd_proof K fl P).
  Proof using N_ok p_gt1 p_small q_le. exact (enc_rt enc_proof). Qed.

  Theorem pf_proof : PF v_proof (wr_proof fl) (rd_proof K fl P).
  Proof using N_ok p_gt1 p_small q_le. exact (enc_pf enc_proof). Qed.

  Theorem val_proof : VAL w_proof (rd_proof K fl P).
  Proof using p_gt1.
    exact (inv_bind val_E (fun _ H1 => inv_bind val_E (fun _ H2 => inv_bind val_E (fun _ H3 =>
           inv_bind val_E (fun _ H4 => inv_bind val_E (fun _ H5 => inv_bind val_vecE (fun _ H6 =>
           inv_bind val_X (fun _ H7 => inv_bind val_X (fun _ H8 => inv_bind val_X (fun _ H9 =>
           inv_bind val_X (fun _ H10 => inv_bind val_vecX (fun _ H11 => inv_bind val_vecX (fun _ H12 =>
           inv_bind val_vecE (fun _ H13 => inv_bind val_vecE (fun _ H14 =>
           inv_ret (conj H1 (conj H2 (conj H3 (conj H4 (conj H5 (conj H6 (conj H7 (conj H8 (conj H9 (conj H10
                   (conj H11 (conj H12 (conj H13 H14)))))))))))))))))))))))))))).
  Qed.

  Theorem np_proof : np_reader (rd_proof K fl P).
  Proof.
    exact (np_bind np_E (fun _ => np_bind np_E (fun _ => np_bind np_E (fun _ => np_bind np_E (fun _ =>
           np_bind np_E (fun _ => np_bind np_vecE (fun _ =>
           np_bind np_X (fun _ => np_bind np_X (fun _ => np_bind np_X (fun _ => np_bind np_X (fun _ =>
           np_bind np_vecX (fun _ => np_bind np_vecX (fun _ =>
           np_bind np_vecE (fun _ => np_bind np_vecE (fun _ => np_ret))))))))))))))).
  Qed.

  Theorem de_ser_E a : vE a -> de_E K fl P (wr_E fl a) = Ok a.
  Proof using N_ok p_gt1 p_small. exact (rt_de _ _ _ rt_E a). Qed.
  Theorem de_trailing_E a rest : vE a -> rest <> [] -> de_E K fl P (wr_E fl a ++ rest) = Err.
  Proof using N_ok p_gt1 p_small. exact (rt_trailing _ _ _ rt_E a rest). Qed.
  Theorem ser_inj_E a b : vE a -> vE b -> wr_E fl a = wr_E fl b -> a = b.
  Proof using K N_ok p_gt1 p_small. exact (rt_inj _ _ _ rt_E a b). Qed.
  Theorem de_val_E bs a : bytes_ok bs -> de_E K fl P bs = Ok a -> vE a.
  Proof using p_gt1. exact (inv_de val_E bs a). Qed.
  Theorem de_np_E bs : de_E K fl P bs <> Panic.
  Proof. exact (strict_np _ np_E bs). Qed.
  Theorem de_trunc_E a b : vE a -> (exists x, x <> [] /\ b ++ x = wr_E fl a) -> de_E K fl P b = Err.
  Proof using N_ok p_small. exact (pf_de _ _ _ pf_E a b). Qed.
  Theorem de_ser_X a : vX a -> de_X fl P (wr_X fl a) = Ok a.
  Proof using N_ok p_small q_le. exact (rt_de _ _ _ rt_X a). Qed.
  Theorem de_trailing_X a rest : vX a -> rest <> [] -> de_X fl P (wr_X fl a ++ rest) = Err.
  Proof using N_ok p_small q_le. exact (rt_trailing _ _ _ rt_X a rest). Qed.
  Theorem ser_inj_X a b : vX a -> vX b -> wr_X fl a = wr_X fl b -> a = b.
  Proof using N_ok p_small q_le. exact (rt_inj _ _ _ rt_X a b). Qed.
  Theorem de_val_X bs a : bytes_ok bs -> de_X fl P bs = Ok a -> vX a.
  Proof. exact (inv_de val_X bs a). Qed.
  Theorem de_np_X bs : de_X fl P bs <> Panic.
  Proof. exact (strict_np _ np_X bs). Qed.
  Theorem de_trunc_X a b : vX a -> (exists x, x <> [] /\ b ++ x = wr_X fl a) -> de_X fl P b = Err.
  Proof using N_ok p_small q_le. exact (pf_de _ _ _ pf_X a b). Qed.
  Theorem de_ser_P a : vP a -> de_P fl (wr_P fl a) = Ok a.
  Proof using N_ok. exact (rt_de _ _ _ rt_P a). Qed.
  Theorem de_trailing_P a rest : vP a -> rest <> [] -> de_P fl (wr_P fl a ++ rest) = Err.
  Proof using N_ok. exact (rt_trailing _ _ _ rt_P a rest). Qed.
  Theorem ser_inj_P a b : vP a -> vP b -> wr_P fl a = wr_P fl b -> a = b.
  Proof using N_ok. exact (rt_inj _ _ _ rt_P a b). Qed.
  Theorem de_val_P bs a : bytes_ok bs -> de_P fl bs = Ok a -> wP a.
  Proof. exact (inv_de val_P bs a). Qed.
  Theorem de_np_P bs : de_P fl bs <> Panic.
  Proof. exact (strict_np _ np_P bs). Qed.
  Theorem de_trunc_P a b : vP a -> (exists x, x <> [] /\ b ++ x = wr_P fl a) -> de_P fl b = Err.
  Proof using N_ok. exact (pf_de _ _ _ pf_P a b). Qed.
  Theorem de_ser_ct a : v_ct a -> de_ct K fl P (wr_ct K fl P a) = Ok a.
  Proof using N_ok p_gt1 p_small. exact (rt_de _ _ _ rt_ct a). Qed.
  Theorem de_trailing_ct a rest : v_ct a -> rest <> [] -> de_ct K fl P (wr_ct K fl P a ++ rest) = Err.
  Proof using N_ok p_gt1 p_small. exact (rt_trailing _ _ _ rt_ct a rest). Qed.
  Theorem ser_inj_ct a b : v_ct a -> v_ct b -> wr_ct K fl P a = wr_ct K fl P b -> a = b.
  Proof using N_ok p_gt1 p_small. exact (rt_inj _ _ _ rt_ct a b). Qed.
  Theorem de_val_ct bs a : bytes_ok bs -> de_ct K fl P bs = Ok a -> v_ct a.
  Proof using p_gt1. exact (inv_de val_ct bs a). Qed.
  Theorem de_np_ct bs : de_ct K fl P bs <> Panic.
  Proof. exact (strict_np _ np_ct bs). Qed.
  Theorem de_trunc_ct a b : v_ct a -> (exists x, x <> [] /\ b ++ x = wr_ct K fl P a) -> de_ct K fl P b = Err.
  Proof using N_ok p_gt1 p_small. exact (pf_de _ _ _ pf_ct a b). Qed.
  Theorem de_ser_pk a : vE a -> de_pk K fl P (wr_pk fl a) = Ok a.
  Proof using N_ok p_gt1 p_small. exact (rt_de _ _ _ rt_pk a). Qed.
  Theorem de_trailing_pk a rest : vE a -> rest <> [] -> de_pk K fl P (wr_pk fl a ++ rest) = Err.
  Proof using N_ok p_gt1 p_small. exact (rt_trailing _ _ _ rt_pk a rest). Qed.
  Theorem ser_inj_pk a b : vE a -> vE b -> wr_pk fl a = wr_pk fl b -> a = b.
  Proof using K N_ok p_gt1 p_small. exact (rt_inj _ _ _ rt_pk a b). Qed.
  Theorem de_val_pk bs a : bytes_ok bs -> de_pk K fl P bs = Ok a -> vE a.
  Proof using p_gt1. exact (inv_de val_pk bs a). Qed.
  Theorem de_np_pk bs : de_pk K fl P bs <> Panic.
  Proof. exact (strict_np _ np_pk bs). Qed.
  Theorem de_trunc_pk a b : vE a -> (exists x, x <> [] /\ b ++ x = wr_pk fl a) -> de_pk K fl P b = Err.
  Proof using N_ok p_small. exact (pf_de _ _ _ pf_pk a b). Qed.
  Theorem de_ser_sk a : v_sk a -> de_sk K fl P (wr_skp a) = Ok a.
  Proof using N_ok p_gt1 p_small q_le. exact (rt_de _ _ _ rt_sk a). Qed.
  Theorem de_trailing_sk a rest : v_sk a -> rest <> [] -> de_sk K fl P (wr_skp a ++ rest) = Err.
  Proof using N_ok p_gt1 p_small q_le. exact (rt_trailing _ _ _ rt_sk a rest). Qed.
  Theorem ser_inj_sk a b : v_sk a -> v_sk b -> wr_skp a = wr_skp b -> a = b.
  Proof using K N_ok p_gt1 p_small q_le. exact (rt_inj _ _ _ rt_sk a b). Qed.
  Theorem de_val_sk bs a : bytes_ok bs -> de_sk K fl P bs = Ok a -> v_sk a.
  Proof using p_gt1. exact (inv_de val_sk bs a). Qed.
  Theorem de_np_sk bs : de_sk K fl P bs <> Panic.
  Proof. exact (strict_np _ np_sk bs). Qed.
  Theorem de_trunc_sk a b : v_sk a -> (exists x, x <> [] /\ b ++ x = wr_skp a) -> de_sk K fl P b = Err.
  Proof using N_ok p_gt1 p_small q_le. exact (pf_de _ _ _ pf_sk a b). Qed.
  Theorem de_ser_schnorr a : v_schnorr a -> de_schnorr K fl P (wr_schnorr K fl P a) = Ok a.
  Proof using N_ok p_gt1 p_small q_le. exact (rt_de _ _ _ rt_schnorr a). Qed.
  Theorem de_trailing_schnorr a rest : v_schnorr a -> rest <> [] -> de_schnorr K fl P (wr_schnorr K fl P a ++ rest) = Err.
  Proof using N_ok p_gt1 p_small q_le. exact (rt_trailing _ _ _ rt_schnorr a rest). Qed.
  Theorem ser_inj_schnorr a b : v_schnorr a -> v_schnorr b -> wr_schnorr K fl P a = wr_schnorr K fl P b -> a = b.
  Proof using N_ok p_gt1 p_small q_le. exact (rt_inj _ _ _ rt_schnorr a b). Qed.
  Theorem de_val_schnorr bs a : bytes_ok bs -> de_schnorr K fl P bs = Ok a -> v_schnorr a.
  Proof using p_gt1. exact (inv_de val_schnorr bs a). Qed.
  Theorem de_np_schnorr bs : de_schnorr K fl P bs <> Panic.
  Proof. exact (strict_np _ np_schnorr bs). Qed.
  Theorem de_trunc_schnorr a b : v_schnorr a -> (exists x, x <> [] /\ b ++ x = wr_schnorr K fl P a) -> de_schnorr K fl P b = Err.
  Proof using N_ok p_gt1 p_small q_le. exact (pf_de _ _ _ pf_schnorr a b). Qed.
  Theorem de_ser_cp a : v_cp a -> de_cp K fl P (wr_cp K fl P a) = Ok a.
  Proof using N_ok p_gt1 p_small q_le. exact (rt_de _ _ _ rt_cp a). Qed.
  Theorem de_trailing_cp a rest : v_cp a -> rest <> [] -> de_cp K fl P (wr_cp K fl P a ++ rest) = Err.
  Proof using N_ok p_gt1 p_small q_le. exact (rt_trailing _ _ _ rt_cp a rest). Qed.
  Theorem ser_inj_cp a b : v_cp a -> v_cp b -> wr_cp K fl P a = wr_cp K fl P b -> a = b.
  Proof using N_ok p_gt1 p_small q_le. exact (rt_inj _ _ _ rt_cp a b). Qed.
  Theorem de_val_cp bs a : bytes_ok bs -> de_cp K fl P bs = Ok a -> v_cp a.
  Proof using p_gt1. exact (inv_de val_cp bs a). Qed.
  Theorem de_np_cp bs : de_cp K fl P bs <> Panic.
  Proof. exact (strict_np _ np_cp bs). Qed.
  Theorem de_trunc_cp a b : v_cp a -> (exists x, x <> [] /\ b ++ x = wr_cp K fl P a) -> de_cp K fl P b = Err.
  Proof using N_ok p_gt1 p_small q_le. exact (pf_de _ _ _ pf_cp a b). Qed.
  Theorem de_ser_vecE a : v_vecE a -> strict (rd_vecE K fl P) (wr_vecE fl a) = Ok a.
  Proof using N_ok p_gt1 p_small. exact (rt_de _ _ _ rt_vecE a). Qed.
  Theorem de_trailing_vecE a rest : v_vecE a -> rest <> [] -> strict (rd_vecE K fl P) (wr_vecE fl a ++ rest) = Err.
  Proof using N_ok p_gt1 p_small. exact (rt_trailing _ _ _ rt_vecE a rest). Qed.
  Theorem ser_inj_vecE a b : v_vecE a -> v_vecE b -> wr_vecE fl a = wr_vecE fl b -> a = b.
  Proof using K N_ok p_gt1 p_small. exact (rt_inj _ _ _ rt_vecE a b). Qed.
  Theorem de_val_vecE bs a : bytes_ok bs -> strict (rd_vecE K fl P) bs = Ok a -> Forall vE a.
  Proof using p_gt1. exact (inv_de val_vecE bs a). Qed.
  Theorem de_np_vecE bs : strict (rd_vecE K fl P) bs <> Panic.
  Proof. exact (strict_np _ np_vecE bs). Qed.
  Theorem de_trunc_vecE a b : v_vecE a -> (exists x, x <> [] /\ b ++ x = wr_vecE fl a) -> strict (rd_vecE K fl P) b = Err.
  Proof. exact (pf_de _ _ _ pf_vecE a b). Qed.
  Theorem de_ser_vecX a : v_vecX a -> strict (rd_vecX fl P) (wr_vecX fl a) = Ok a.
  Proof using N_ok p_small q_le. exact (rt_de _ _ _ rt_vecX a). Qed.
  Theorem de_trailing_vecX a rest : v_vecX a -> rest <> [] -> strict (rd_vecX fl P) (wr_vecX fl a ++ rest) = Err.
  Proof using N_ok p_small q_le. exact (rt_trailing _ _ _ rt_vecX a rest). Qed.
  Theorem ser_inj_vecX a b : v_vecX a -> v_vecX b -> wr_vecX fl a = wr_vecX fl b -> a = b.
  Proof using N_ok p_small q_le. exact (rt_inj _ _ _ rt_vecX a b). Qed.
  Theorem de_val_vecX bs a : bytes_ok bs -> strict (rd_vecX fl P) bs = Ok a -> Forall vX a.
  Proof. exact (inv_de val_vecX bs a). Qed.
  Theorem de_np_vecX bs : strict (rd_vecX fl P) bs <> Panic.
  Proof. exact (strict_np _ np_vecX bs). Qed.
  Theorem de_trunc_vecX a b : v_vecX a -> (exists x, x <> [] /\ b ++ x = wr_vecX fl a) -> strict (rd_vecX fl P) b = Err.
  Proof. exact (pf_de _ _ _ pf_vecX a b). Qed.
  Theorem de_ser_vecC a : v_vecC a -> strict (rd_vecC K fl P) (wr_vecC K fl P a) = Ok a.
  Proof using N_ok p_gt1 p_small. exact (rt_de _ _ _ rt_vecC a). Qed.
  Theorem de_trailing_vecC a rest : v_vecC a -> rest <> [] -> strict (rd_vecC K fl P) (wr_vecC K fl P a ++ rest) = Err.
  Proof using N_ok p_gt1 p_small. exact (rt_trailing _ _ _ rt_vecC a rest). Qed.
  Theorem ser_inj_vecC a b : v_vecC a -> v_vecC b -> wr_vecC K fl P a = wr_vecC K fl P b -> a = b.
  Proof using N_ok p_gt1 p_small. exact (rt_inj _ _ _ rt_vecC a b). Qed.
  Theorem de_val_vecC bs a : bytes_ok bs -> strict (rd_vecC K fl P) bs = Ok a -> Forall v_ct a.
  Proof using p_gt1. exact (inv_de val_vecC bs a). Qed.
  Theorem de_np_vecC bs : strict (rd_vecC K fl P) bs <> Panic.
  Proof. exact (strict_np _ np_vecC bs). Qed.
  Theorem de_trunc_vecC a b : v_vecC a -> (exists x, x <> [] /\ b ++ x = wr_vecC K fl P a) -> strict (rd_vecC K fl P) b = Err.
  Proof. exact (pf_de _ _ _ pf_vecC a b). Qed.
  Theorem de_ser_vecP a : v_vecP a -> strict (rd_vecP fl) (wr_vecP fl a) = Ok a.
  Proof using N_ok. exact (rt_de _ _ _ rt_vecP a). Qed.
  Theorem de_trailing_vecP a rest : v_vecP a -> rest <> [] -> strict (rd_vecP fl) (wr_vecP fl a ++ rest) = Err.
  Proof using N_ok. exact (rt_trailing _ _ _ rt_vecP a rest). Qed.
  Theorem ser_inj_vecP a b : v_vecP a -> v_vecP b -> wr_vecP fl a = wr_vecP fl b -> a = b.
  Proof using N_ok. exact (rt_inj _ _ _ rt_vecP a b). Qed.
  Theorem de_val_vecP bs a : bytes_ok bs -> strict (rd_vecP fl) bs = Ok a -> Forall wP a.
  Proof. exact (inv_de val_vecP bs a). Qed.
  Theorem de_np_vecP bs : strict (rd_vecP fl) bs <> Panic.
  Proof. exact (strict_np _ np_vecP bs). Qed.
  Theorem de_trunc_vecP a b : v_vecP a -> (exists x, x <> [] /\ b ++ x = wr_vecP fl a) -> strict (rd_vecP fl) b = Err.
  Proof. exact (pf_de _ _ _ pf_vecP a b). Qed.
  Theorem de_ser_vecCP a : v_vecCP a -> strict (rd_vecCP K fl P) (wr_vecCP K fl P a) = Ok a.
  Proof using N_ok p_gt1 p_small q_le. exact (rt_de _ _ _ rt_vecCP a). Qed.
  Theorem de_trailing_vecCP a rest : v_vecCP a -> rest <> [] -> strict (rd_vecCP K fl P) (wr_vecCP K fl P a ++ rest) = Err.
  Proof using N_ok p_gt1 p_small q_le. exact (rt_trailing _ _ _ rt_vecCP a rest). Qed.
  Theorem ser_inj_vecCP a b : v_vecCP a -> v_vecCP b -> wr_vecCP K fl P a = wr_vecCP K fl P b -> a = b.
  Proof using N_ok p_gt1 p_small q_le. exact (rt_inj _ _ _ rt_vecCP a b). Qed.
  Theorem de_val_vecCP bs a : bytes_ok bs -> strict (rd_vecCP K fl P) bs = Ok a -> Forall v_cp a.
  Proof using p_gt1. exact (inv_de val_vecCP bs a). Qed.
  Theorem de_np_vecCP bs : strict (rd_vecCP K fl P) bs <> Panic.
  Proof. exact (strict_np _ np_vecCP bs). Qed.
  Theorem de_trunc_vecCP a b : v_vecCP a -> (exists x, x <> [] /\ b ++ x = wr_vecCP K fl P a) -> strict (rd_vecCP K fl P) b = Err.
  Proof. exact (pf_de _ _ _ pf_vecCP a b). Qed.
  Theorem de_ser_proof a : v_proof a -> de_proof K fl P (wr_proof fl a) = Ok a.
  Proof using N_ok p_gt1 p_small q_le. exact (rt_de _ _ _ rt_proof a). Qed.
  Theorem de_trailing_proof a rest : v_proof a -> rest <> [] -> de_proof K fl P (wr_proof fl a ++ rest) = Err.
  Proof using N_ok p_gt1 p_small q_le. exact (rt_trailing _ _ _ rt_proof a rest). Qed.
  Theorem ser_inj_proof a b : v_proof a -> v_proof b -> wr_proof fl a = wr_proof fl b -> a = b.
  Proof using K N_ok p_gt1 p_small q_le. exact (rt_inj _ _ _ rt_proof a b). Qed.
  Theorem de_val_proof bs a : bytes_ok bs -> de_proof K fl P bs = Ok a -> w_proof a.
  Proof using p_gt1. exact (inv_de val_proof bs a). Qed.
  Theorem de_np_proof bs : de_proof K fl P bs <> Panic.
  Proof. exact (strict_np _ np_proof bs). Qed.
  Theorem de_trunc_proof a b : v_proof a -> (exists x, x <> [] /\ b ++ x = wr_proof fl a) -> de_proof K fl P b = Err.
  Proof using N_ok p_gt1 p_small q_le. exact (pf_de _ _ _ pf_proof a b). Qed.

  Theorem de_val_E_any bs a : de_E K fl P bs = Ok a -> member P a.
  Proof using p_gt1. intro H. apply strict_inv in H. exact (val_E_any _ _ _ H). Qed.
  Theorem de_val_ct_any bs c : de_ct K fl P bs = Ok c -> member P (mhr c) /\ member P (gr c).
  Proof using p_gt1. intro H. apply strict_inv in H. exact (val_ct_any _ _ _ H). Qed.
  Theorem de_val_pk_any bs a : de_pk K fl P bs = Ok a -> member P a.
  Proof using p_gt1. intro H. apply strict_inv in H. exact (val_pk_any _ _ _ H). Qed.

  Theorem decoded_proof_wf bs w : de_proof K fl P bs = Ok w -> bytes_ok bs ->
    member P (sp_t1 w) /\ member P (sp_t2 w) /\ member P (sp_t3 w) /\ member P (sp_t41 w) /\
    member P (sp_t42 w) /\
    Forall (member P) (sp_t_hats w) /\ Forall (member P) (sp_cs w) /\ Forall (member P) (sp_c_hats w) /\
    0 <= sp_s1 w < q /\ 0 <= sp_s2 w < q /\ 0 <= sp_s3 w < q /\ 0 <= sp_s4 w < q /\
    Forall (fun x => 0 <= x < q) (sp_s_hats w) /\ Forall (fun x => 0 <= x < q) (sp_s_primes w).
  Proof using p_gt1.
    intros H Hok. pose proof (de_val_proof bs w Hok H) as Hw. unfold w_proof, vE, vX in Hw.
    destruct Hw as (H1 & H2 & H3 & H4 & H5 & H6 & H7 & H8 & H9 & H10 & H11 & H12 & H13 & H14).
    repeat (split; [assumption|]); assumption.
  Qed.

  (* encoded sizes: when p fits in N bytes with 4*(4+N) < 2^32, the per-item size conditions of the vector
     validity predicates follow from plain Forall-validity *)
  Lemma z_ser_int_len a : a < 2 ^ (8 * N) -> Z.of_nat (length (z_ser_int fl a)) <= 4 + N.
  Proof using N_ok.
    intro Ha. unfold z_ser_int. rewrite wr_vec_u8_len. pose proof (bytes_of_int_len a Ha). lia.
  Qed.

  Lemma wr_E_len a : vE a -> Z.of_nat (length (wr_E fl a)) <= 4 + N.
  Proof using N_ok p_small. intro Ha. apply z_ser_int_len, vE_lt, Ha. Qed.

  Lemma wr_X_len x : vX x -> Z.of_nat (length (wr_X fl x)) <= 4 + N.
  Proof using N_ok p_small q_le. intro Hx. apply z_ser_int_len, vX_lt, Hx. Qed.

  Lemma wr_ct_len c : v_ct c -> Z.of_nat (length (wr_ct K fl P c)) <= 2 * (4 + N).
  Proof using N_ok p_small.
    intros [Ha Hb]. unfold wr_ct. rewrite app_length.
    pose proof (wr_E_len _ Ha). pose proof (wr_E_len _ Hb). lia.
  Qed.

  Lemma wr_cp_len c : v_cp c -> Z.of_nat (length (wr_cp K fl P c)) <= 4 * (4 + N).
  Proof using N_ok p_small q_le.
    intros (Ha & Hb & Hc & Hs). unfold wr_cp. rewrite !app_length.
    pose proof (wr_E_len _ Ha). pose proof (wr_E_len _ Hb).
    pose proof (wr_X_len _ Hc). pose proof (wr_X_len _ Hs). lia.
  Qed.

  Lemma wr_P_len m : vP m -> Z.of_nat (length (wr_P fl m)) <= 4 + 2 * N.
  Proof using N_ok.
    intros [Hm0 Hm]. pose proof (bytes_of_int_len m Hm) as Hlen. unfold wr_P. unfold bytes_of_int in Hlen. destruct fl.
    - rewrite wr_vec_u8_len. lia.
    - rewrite app_length, u32le_len, (flat_map_const_len u16le 2) by (intro; apply u16le_len). lia.
  Qed.

  Theorem v_vecE_intro l : 4 + N < 2 ^ 32 -> Z.of_nat (length l) < 2 ^ 32 -> Forall vE l -> v_vecE l.
  Proof using N_ok p_small. intros HN. apply (vvec_intro vE (wr_E fl) (4 + N)); [exact wr_E_len|exact HN]. Qed.
  Theorem v_vecX_intro l : 4 + N < 2 ^ 32 -> Z.of_nat (length l) < 2 ^ 32 -> Forall vX l -> v_vecX l.
  Proof using N_ok p_small q_le. intros HN. apply (vvec_intro vX (wr_X fl) (4 + N)); [exact wr_X_len|exact HN]. Qed.
  Theorem v_vecC_intro l : 2 * (4 + N) < 2 ^ 32 -> Z.of_nat (length l) < 2 ^ 32 -> Forall v_ct l -> v_vecC l.
  Proof using N_ok p_small. intros HN. apply (vvec_intro v_ct (wr_ct K fl P) (2 * (4 + N))); [exact wr_ct_len|exact HN]. Qed.
  Theorem v_vecCP_intro l : 4 * (4 + N) < 2 ^ 32 -> Z.of_nat (length l) < 2 ^ 32 -> Forall v_cp l -> v_vecCP l.
  Proof using N_ok p_small q_le. intros HN. apply (vvec_intro v_cp (wr_cp K fl P) (4 * (4 + N))); [exact wr_cp_len|exact HN]. Qed.
  Theorem v_vecP_intro l : 4 + 2 * N < 2 ^ 32 -> Z.of_nat (length l) < 2 ^ 32 -> Forall vP l -> v_vecP l.
  Proof using N_ok. intros HN. apply (vvec_intro vP (wr_P fl) (4 + 2 * N)); [exact wr_P_len|exact HN]. Qed.

  Theorem v_proof_intro w : 4 + N < 2 ^ 32 ->
    Z.of_nat (length (sp_t_hats w)) < 2 ^ 32 -> Z.of_nat (length (sp_s_hats w)) < 2 ^ 32 ->
    Z.of_nat (length (sp_s_primes w)) < 2 ^ 32 -> Z.of_nat (length (sp_cs w)) < 2 ^ 32 ->
    Z.of_nat (length (sp_c_hats w)) < 2 ^ 32 ->
    w_proof w -> v_proof w.
  Proof using N_ok p_small q_le.
    intros HN L1 L2 L3 L4 L5 (H1 & H2 & H3 & H4 & H5 & H6 & H7 & H8 & H9 & H10 & H11 & H12 & H13 & H14).
    unfold v_proof.
    repeat (split; [first [assumption | apply v_vecE_intro; assumption | apply v_vecX_intro; assumption]|]).
    apply v_vecE_intro; assumption.
  Qed.
End W.

(* The instance at the wire format's bound: N = u32::MAX, i.e. p < 2^(8*4294967295).  Every theorem above is instantiated the
   same way: [thm K fl P 4294967295 u32max_ok ...].  (Keep that literal power out of proof contexts where
   lia/auto run: they try to evaluate it.) *)
Lemma u32max_ok : 1 <= 4294967295 <= 4294967295.
Proof. lia. Qed.

Theorem rt_E_max K fl P : 1 < p_p P -> p_p P < 2 ^ (8 * 4294967295) ->
  forall a rest, member P a -> rd_E K fl P (wr_E fl a ++ rest) = Ok (a, rest).
Proof. intros H1 H2. exact (rt_E K fl P 4294967295 u32max_ok H1 H2). Qed.

Theorem rt_proof_max K fl P : 1 < p_p P -> p_p P < 2 ^ (8 * 4294967295) -> 0 < p_q P <= p_p P ->
  forall w rest, v_proof fl P w -> rd_proof K fl P (wr_proof fl w ++ rest) = Ok (w, rest).
Proof. intros H1 H2 H3. exact (rt_proof K fl P 4294967295 u32max_ok H1 H2 H3). Qed.

Print Assumptions element_from_bytes_spec.
Print Assumptions exp_from_bytes_spec.
Print Assumptions decoded_proof_wf.
Print Assumptions de_ser_E.
Print Assumptions de_trailing_proof.
Print Assumptions ser_inj_proof.
Print Assumptions de_np_proof.
Print Assumptions de_trunc_proof.
