(* Proofs/RistrettoWireP.v — what can be proved about the ristretto backend's byte layer WITHOUT the curve's group
   law: every wire reader of Model/RBackend.v is total on every byte string (never Panic: C13 for the third
   backend), the exponent decoder accepts exactly the 32-byte little-endian encodings of integers below the group
   order (C11), canonical scalars round-trip and nothing else decodes to them (C12), the element decoder refuses
   everything that is not 32 bytes / not canonical / negative before the curve equation is even looked at, and the
   wide reduction used by the samplers and by hash_to_exp lands in [0, l) and reaches every value (C18). *)
From Coq Require Import ZArith List Bool Lia.
From Strand Require Import Base.ZUtil Model.Outcome Model.Codec Model.Sha512 Model.Backend Model.Zkp Model.Shuffler
  Model.Ristretto Model.RistrettoFast Model.RBackend Proofs.CodecP.
Import ListNotations.
Open Scope Z_scope.

Section RW.
  Variable K : Kernel.
  Variable PM : PMul.
  Local Open Scope outcome_scope.

  Lemma of_option_err_np {A} (o : option A) : of_option_err o <> Panic.
  Proof. destruct o; discriminate. Qed.

  Lemma r_element_from_bytes_np bs : r_element_from_bytes K bs <> Panic.
  Proof. unfold r_element_from_bytes. destruct (length bs =? 32)%nat; [apply of_option_err_np|discriminate]. Qed.

  Lemma r_exp_from_bytes_np bs : r_exp_from_bytes bs <> Panic.
  Proof. unfold r_exp_from_bytes. destruct (length bs =? 32)%nat; [apply of_option_err_np|discriminate]. Qed.

  Lemma np_RE : np_reader (rd_RE K).
  Proof. exact (np_bind (take_n_np 32) (fun b => np_lift (r_element_from_bytes_np b))). Qed.

  Lemma np_RX : np_reader rd_RX.
  Proof. exact (np_bind (take_n_np 32) (fun b => np_lift (r_exp_from_bytes_np b))). Qed.

  Lemma np_RP : np_reader rd_RP.
  Proof. exact (take_n_np 30). Qed.

  Lemma np_Rsvec {A} (rd : reader A) : np_reader rd -> np_reader (rd_Rsvec rd).
  Proof. exact (np_rd_items rd). Qed.

  Lemma np_Rct : np_reader (rd_Rct K PM).
  Proof. exact (np_bind np_RE (fun _ => np_bind np_RE (fun _ => np_ret))). Qed.

  Lemma np_Rsk : np_reader (rd_Rsk K).
  Proof. exact (np_bind np_RX (fun _ => np_bind np_RE (fun _ => np_ret))). Qed.

  Lemma np_Rschnorr : np_reader (rd_Rschnorr K PM).
  Proof. exact (np_bind np_RE (fun _ => np_bind np_RX (fun _ => np_bind np_RX (fun _ => np_ret)))). Qed.

  Lemma np_Rcp : np_reader (rd_Rcp K PM).
  Proof.
    exact (np_bind np_RE (fun _ => np_bind np_RE (fun _ => np_bind np_RX (fun _ => np_bind np_RX (fun _ => np_ret))))).
  Qed.

  Lemma np_Rproof : np_reader (rd_Rproof K PM).
  Proof.
    pose proof (np_Rsvec _ np_RE) as np_vecE. pose proof (np_Rsvec _ np_RX) as np_vecX.
    exact (np_bind np_RE (fun _ => np_bind np_RE (fun _ => np_bind np_RE (fun _ => np_bind np_RE (fun _ =>
           np_bind np_RE (fun _ => np_bind np_vecE (fun _ =>
           np_bind np_RX (fun _ => np_bind np_RX (fun _ => np_bind np_RX (fun _ => np_bind np_RX (fun _ =>
           np_bind np_vecX (fun _ => np_bind np_vecX (fun _ =>
           np_bind np_vecE (fun _ => np_bind np_vecE (fun _ => np_ret))))))))))))))).
  Qed.

  Theorem ristretto_readers_never_panic :
    np_reader (rd_RE K) /\ np_reader rd_RX /\ np_reader rd_RP /\ np_reader (rd_Rct K PM) /\ np_reader (rd_Rsk K) /\
    np_reader (rd_Rschnorr K PM) /\ np_reader (rd_Rcp K PM) /\
    np_reader (rd_Rsvec (rd_RE K)) /\ np_reader (rd_Rsvec rd_RX) /\ np_reader (rd_Rsvec (rd_Rct K PM)) /\
    np_reader (rd_Rproof K PM).
  Proof.
    repeat split; auto using np_RE, np_RX, np_RP, np_Rct, np_Rsk, np_Rschnorr, np_Rcp, np_Rproof, np_Rsvec.
  Qed.

  Theorem r_exp_acceptance bs v :
    r_exp_from_bytes bs = Ok v <-> (length bs = 32%nat /\ v = le_int bs /\ v < ell).
  Proof.
    unfold r_exp_from_bytes, sc_from_canonical_bytes. split.
    - destruct (length bs =? 32)%nat eqn:El; [|discriminate]. apply Nat.eqb_eq in El. cbn [negb].
      destruct (le_int bs <? ell) eqn:Ev; cbn [of_option_err]; [|discriminate].
      intro H. injection H as <-. apply Z.ltb_lt in Ev. auto.
    - intros (El & -> & Hv). rewrite El. cbn. apply Z.ltb_lt in Hv. rewrite Hv. reflexivity.
  Qed.

  Lemma pow256_32 : 256 ^ Z.of_nat 32 = 2 ^ 256.
  Proof. vm_compute. reflexivity. Qed.

  Lemma ell_lt_256 : ell < 2 ^ 256.
  Proof. vm_compute. reflexivity. Qed.

  Theorem r_exp_roundtrip x : 0 <= x < ell -> r_exp_from_bytes (sc_to_bytes x) = Ok x.
  Proof.
    intro Hx. apply r_exp_acceptance. unfold sc_to_bytes. rewrite le_fixed_len. split; [reflexivity|].
    rewrite le_fixed_int by (rewrite pow256_32; pose proof ell_lt_256; lia). split; [reflexivity|lia].
  Qed.

  Theorem sc_to_bytes_len x : length (sc_to_bytes x) = 32%nat.
  Proof. apply le_fixed_len. Qed.

  Theorem sc_to_bytes_injective x y : 0 <= x < ell -> 0 <= y < ell -> sc_to_bytes x = sc_to_bytes y -> x = y.
  Proof.
    intros Hx Hy E. pose proof (r_exp_roundtrip x Hx) as A. rewrite E, (r_exp_roundtrip y Hy) in A. congruence.
  Qed.

  Theorem r_wrong_length_refused bs : length bs <> 32%nat ->
    r_exp_from_bytes bs = Err /\ r_element_from_bytes K bs = Err.
  Proof.
    intro H. apply Nat.eqb_neq in H. unfold r_exp_from_bytes, r_element_from_bytes. rewrite H. auto.
  Qed.

  Theorem r_element_precheck bs : length bs = 32%nat -> (le_int bs >= fp \/ Z.odd (le_int bs) = true) ->
    r_element_from_bytes K bs = Err.
  Proof.
    intros El H. unfold r_element_from_bytes, decompress. rewrite El. cbn [Nat.eqb negb].
    replace ((32 =? 32)%nat) with true by reflexivity. cbn [negb].
    destruct H as [H|H].
    - replace (le_int bs >=? fp) with true by (symmetry; apply Z.geb_le; lia). reflexivity.
    - rewrite H, orb_true_r. reflexivity.
  Qed.

  Theorem sc_reduce_range bs : 0 <= sc_from_bytes_mod_order K bs < ell.
  Proof.
    unfold sc_from_bytes_mod_order, smod. rewrite k_mod_ok. apply Z.mod_pos_bound. vm_compute. reflexivity.
  Qed.

  Theorem r_rnd_exp_in_range s v rest : r_rnd_exp K s = Ok (v, rest) -> 0 <= v < ell.
  Proof.
    unfold r_rnd_exp. intro H. apply bind_ok in H. destruct H as ([b r] & _ & H). injection H as <- _.
    apply sc_reduce_range.
  Qed.

  Theorem r_hash_to_exp_in_range bs : 0 <= r_hash_to_exp K bs < ell.
  Proof. apply sc_reduce_range. Qed.

  Theorem r_rnd_exp_onto v rest : 0 <= v < ell ->
    exists s, bytes_ok s /\ length s = 64%nat /\ r_rnd_exp K (s ++ rest) = Ok (v, rest).
  Proof.
    intro Hv. exists (le_fixed 64 v). split; [apply le_fixed_ok|]. split; [apply le_fixed_len|].
    unfold r_rnd_exp. replace 64%nat with (length (le_fixed 64 v)) at 1 by apply le_fixed_len.
    rewrite take_n_app. cbn [bind]. unfold sc_from_bytes_mod_order, smod. rewrite k_mod_ok.
    rewrite le_fixed_int.
    - rewrite Z.mod_small by lia. reflexivity.
    - assert (ell < 256 ^ Z.of_nat 64) by (vm_compute; reflexivity). lia.
  Qed.

  (* scalars and 30-byte plaintexts as codecs in the sense of Proofs/CodecP.v (round trip under any suffix, every
     strict prefix fails), so C12's generic consequences (strict decode inverts encode, appended / removed bytes
     rejected, injectivity) hold for them *)
  Lemma enc_RX x : 0 <= x < ell -> enc rd_RX x (sc_to_bytes x).
  Proof.
    intro Hx. refine (enc_last (enc_take (sc_to_bytes x)) (fun r => _)).
    unfold rd_lift. rewrite (r_exp_roundtrip x Hx). reflexivity.
  Qed.

  Theorem rt_RX : RT (fun x => 0 <= x < ell) sc_to_bytes rd_RX.
  Proof. exact (enc_rt enc_RX). Qed.

  Theorem pf_RX : PF (fun x => 0 <= x < ell) sc_to_bytes rd_RX.
  Proof. exact (enc_pf enc_RX). Qed.

  Lemma enc_RP m : length m = 30%nat -> enc rd_RP m m.
  Proof. intro Hm. unfold rd_RP. rewrite <- Hm. apply enc_take. Qed.

  Theorem rt_RP : RT (fun m : bytes => length m = 30%nat) (fun m => m) rd_RP.
  Proof. exact (enc_rt enc_RP). Qed.

  Theorem pf_RP : PF (fun m : bytes => length m = 30%nat) (fun m => m) rd_RP.
  Proof. exact (enc_pf enc_RP). Qed.
End RW.

Print Assumptions ristretto_readers_never_panic.
Print Assumptions r_exp_acceptance.
Print Assumptions r_rnd_exp_onto.
Print Assumptions rt_RX.
Print Assumptions pf_RX.
