(* Proofs/RistrettoDecode.v — what the point decoders of the model return is a point of the curve.
   The integer side of the codecs: canonical representatives, parity, |a|.
   RFC 9496 DECODE (CompressedRistretto::decompress): for every byte string, if [decompress] answers [Some P]
   then P is a valid extended point (Z = 1, T = X Y, -x^2 + y^2 = 1 + d x^2 y^2). The only fact needed about SQRT_RATIO_M1
   is the one the code itself checks: when it reports "was square", v r^2 = u. One run of DECODE is described once, in
   GF(p) (decode_s_run, with the field identities that follow from it); Proofs/RistrettoEncode.v and RistrettoCanon.v
   start from the same description.
   The Ed25519 decoder (CompressedEdwardsY::decompress, Model/Ed25519.v) takes the same square root:
   whatever it accepts is a valid point (ed_decompress_valid). *)
From Coq Require Import ZArith Lia Field.
From Coq Require Import Ncring Cring Integral_domain.
From Strand Require Import Base.ZUtil Base.ZpField Base.Edwards Model.Outcome Model.Codec Model.Ristretto Model.RistrettoFast
  Model.RBackend Model.Ed25519 Proofs.PrimeCerts Proofs.RistrettoGroup.
Open Scope Z_scope.

Local Instance Fp_ops : @Ring_ops Fp f0 f1 fa fm fs fo (@eq Fp) := Fops Fp f0 f1 fa fm fs fo.
Local Instance Fp_ri : Ring (Ro:=Fp_ops) := Fri Fp f0 f1 fa fm fs fo fd fi Fth.
Local Instance Fp_cri : Cring (Rr:=Fp_ri) := Fcri Fp f0 f1 fa fm fs fo fd fi Fth.
Local Instance Fp_di : Integral_domain (Rcr:=Fp_cri) := Fdi Fp f0 f1 fa fm fs fo fd fi Fth F_dec.

(* Canonical representatives ([canon], Proofs/RistrettoGroup.v) are the integers 0 <= a < p; every field
   operation of the model returns one (fmod_canon), and on them F is injective *)
Lemma canon_iff a : canon a <-> 0 <= a < fp.
Proof.
  unfold canon, F. rewrite zv_of_Z. split; intro H.
  - rewrite H. apply Z.mod_pos_bound. reflexivity.
  - symmetry. now apply Z.mod_small.
Qed.

Lemma canon_eq a b : canon a -> canon b -> F a = F b -> a = b.
Proof. intros Ha Hb E. rewrite Ha, Hb, E. reflexivity. Qed.

Lemma canon_zero a : canon a -> F a = f0 -> a = 0.
Proof. intros Ca H. rewrite Ca, H. reflexivity. Qed.

Lemma fneg_val K a : 0 < a < fp -> fneg K a = fp - a.
Proof.
  intro R. rewrite (fneg_K K). unfold fneg, fmod. cbn [k_mod K_ref].
  replace (- a) with (fp - a + (-1) * fp) by ring. rewrite Z_mod_plus_full. apply Z.mod_small. lia.
Qed.

Lemma fneg_0 K : fneg K 0 = 0.
Proof. rewrite (fneg_K K). reflexivity. Qed.

Lemma fneg_fneg K a : canon a -> fneg K (fneg K a) = a.
Proof. intro Ca. apply canon_eq; [apply fmod_canon | exact Ca |]. rewrite !F_fneg. ring. Qed.

(* p is odd: negation flips the parity of a non-zero representative *)
Lemma fneg_odd K a : canon a -> a <> 0 -> Z.odd (fneg K a) = negb (Z.odd a).
Proof.
  intros Ca N. apply canon_iff in Ca. rewrite fneg_val by lia.
  rewrite Z.odd_sub. change (Z.odd fp) with true. now destruct (Z.odd a).
Qed.

Lemma fabs_canon K a : canon a -> canon (fabs K a).
Proof. intro Ca. unfold fabs. destruct (fis_neg a); [apply fmod_canon | exact Ca]. Qed.

Lemma fabs_even K a : canon a -> Z.odd (fabs K a) = false.
Proof.
  intro Ca. unfold fabs, fis_neg. destruct (Z.odd a) eqn:O; [|exact O].
  rewrite fneg_odd, O; [reflexivity | exact Ca | intros ->; discriminate O].
Qed.

Lemma F_fabs_sq K a : fm (F (fabs K a)) (F (fabs K a)) = fm (F a) (F a).
Proof. unfold fabs. destruct (fis_neg a); [rewrite F_fneg; ring | reflexivity]. Qed.

(* the non-negative square root is unique: the two roots a, -a have different parity unless both are 0 *)
Lemma even_canon_unique a b : canon a -> canon b -> Z.odd a = false -> Z.odd b = false ->
  fm (F a) (F a) = fm (F b) (F b) -> a = b.
Proof.
  intros Ca Cb Ea Eb S.
  destruct (E_sq_cases _ _ S) as [E|E]; [now apply canon_eq|].
  assert (Ec : a = fneg K_ref b) by (apply canon_eq; [exact Ca | apply fmod_canon | now rewrite F_fneg]).
  destruct (Z.eq_dec b 0) as [->|N]; [exact Ec|].
  rewrite Ec, fneg_odd, Eb in Ea by assumption. discriminate Ea.
Qed.

Lemma fabs_unique K c s : canon c -> canon s -> Z.odd s = false ->
  fm (F c) (F c) = fm (F s) (F s) -> fabs K c = s.
Proof.
  intros Cc Cs Es S. apply even_canon_unique; [now apply fabs_canon | exact Cs | now apply fabs_even | exact Es |].
  now rewrite F_fabs_sq.
Qed.

Lemma sqrt_ratio_ok K u v : fst (sqrt_ratio_m1 K u v) = true ->
  fm (F v) (fm (F (snd (sqrt_ratio_m1 K u v))) (F (snd (sqrt_ratio_m1 K u v)))) = F u.
Proof.
  unfold sqrt_ratio_m1.
  set (r := fmul K (fmul K u (fmul K (fsq K v) v)) (fpow K (fmul K u (fmul K (fsq K (fmul K (fsq K v) v)) v)) ((fp - 5) / 8))).
  set (check := fmul K v (fsq K r)).
  cbn [fst snd]. rewrite F_fabs_sq.
  assert (Ec : F check = fm (F v) (fm (F r) (F r))) by (unfold check, fsq; now rewrite !F_fmul).
  (* the other candidate: v (i r)^2 = - v r^2 *)
  assert (Ei : fm (F v) (fm (F (fmul K sqrt_m1 r)) (F (fmul K sqrt_m1 r))) = fo (F check)).
  { rewrite F_fmul, Ec. fold iF. transitivity (fm (fm iF iF) (fm (F v) (fm (F r) (F r)))); [ring|]. rewrite iF_sq. ring. }
  intro W. apply orb_true_iff in W.
  destruct (check =? fneg K u) eqn:Efl.
  - cbn [orb]. apply Z.eqb_eq in Efl. rewrite Ei, Efl, F_fneg. ring.
  - destruct W as [W|W]; [|discriminate]. apply Z.eqb_eq in W.
    destruct (check =? fneg K (fmul K u sqrt_m1)) eqn:Efi; cbn [orb]; [|now rewrite <- Ec, W].
    (* correct and flipped_i at once, u = -(u i): then u i = -(u i i) = u, hence -u = u *)
    apply Z.eqb_eq in Efi. rewrite W in Efi. apply (f_equal F) in Efi. rewrite F_fneg, F_fmul in Efi. fold iF in Efi.
    rewrite Ei, W. transitivity (fm (F u) iF).
    + rewrite Efi at 1. ring.
    + rewrite Efi at 1. transitivity (fo (fm (F u) (fm iF iF))); [ring|]. rewrite iF_sq. ring.
Qed.

Lemma sqrt_ratio_snd K u v : canon (snd (sqrt_ratio_m1 K u v)) /\ Z.odd (snd (sqrt_ratio_m1 K u v)) = false.
Proof.
  unfold sqrt_ratio_m1. cbn [snd].
  match goal with |- canon (fabs K ?t) /\ _ => assert (C : canon t) end.
  { match goal with |- canon (if ?c then _ else _) => destruct c end; apply fmod_canon. }
  split; [now apply fabs_canon | now apply fabs_even].
Qed.

(* the field algebra of DECODE: S = F s, I the inverse square root, (X, Y) the decoded coordinates. The names spell the
   left-hand sides: YU2 is Y U2, 1mY2 is 1 - Y^2, 1mY is 1 - Y; alg_sq_ok is the premise [sq_ok] of the encoder *)
Section Alg.
  Variables S I X Y : Fp.
  Let U1 := fs f1 (fm S S).
  Let U2 := fa f1 (fm S S).
  Let V := fs (fo (fm dF (fm U1 U1))) (fm U2 U2).
  Hypothesis H : fm (fm V (fm U2 U2)) (fm I I) = f1.
  Hypothesis EX : fm X X = fm (fm (fm (fa f1 f1) S) (fm I U2)) (fm (fm (fa f1 f1) S) (fm I U2)).
  Hypothesis EY : Y = fm U1 (fm (fm I (fm I U2)) V).

  Lemma alg_YU2 : fm Y U2 = U1.
  Proof. rewrite EY. transitivity (fm U1 (fm (fm V (fm U2 U2)) (fm I I))); [ring|]. rewrite H. ring. Qed.

  Lemma alg_1mY2 : fm (fm (fa f1 Y) (fs f1 Y)) (fm U2 U2) = fm (fm (fa f1 f1) (fa f1 f1)) (fm S S).
  Proof. transitivity (fm (fa U2 (fm Y U2)) (fs U2 (fm Y U2))); [ring|]. rewrite alg_YU2. unfold U1, U2. ring. Qed.

  Lemma alg_U2_nz : U2 <> f0.
  Proof. intro Z. apply (F_1_neq_0 Fth). rewrite <- H, Z. ring. Qed.

  Lemma alg_I_nz : I <> f0.
  Proof. intro Z. apply (F_1_neq_0 Fth). rewrite <- H, Z. ring. Qed.

  Lemma alg_X_z : S = f0 -> X = f0.
  Proof.
    intro S0. assert (Q : fm X X = f0) by (rewrite EX, S0; ring).
    destruct (zmul_eq0 fp fp_prime _ _ Q); assumption.
  Qed.

  Lemma alg_X_nz : S <> f0 -> X <> f0.
  Proof.
    intros Sn Z.
    assert (Qn : fm (fm (fa f1 f1) S) (fm I U2) <> f0).
    { apply E_mul_nz; apply E_mul_nz; [exact two_nzF | exact Sn | exact alg_I_nz | exact alg_U2_nz]. }
    apply (E_mul_nz _ _ Qn Qn). rewrite <- EX, Z. ring.
  Qed.

  (* (X, Y) is on the curve: multiplied by U2^2 the equation reads  U1^2 - U2^2 = -X^2 V = -4 S^2 (V U2^2 I^2) *)
  Lemma alg_curve : onc (X, Y).
  Proof.
    unfold Edwards.onc. apply (fm_cancel_r _ _ (fm U2 U2)); [apply E_mul_nz; exact alg_U2_nz|].
    transitivity (fs (fm (fm Y U2) (fm Y U2)) (fm (fm X X) (fm U2 U2))); [ring|].
    transitivity (fa (fm U2 U2) (fm (fm dF (fm X X)) (fm (fm Y U2) (fm Y U2)))); [|ring].
    rewrite alg_YU2, EX.
    transitivity (fa (fa (fm U2 U2) (fm (fm dF (fm (fm (fm (fa f1 f1) S) (fm I U2)) (fm (fm (fa f1 f1) S) (fm I U2)))) (fm U1 U1)))
                     (fm (fm (fm (fa f1 f1) (fa f1 f1)) (fm S S)) (fs (fm (fm V (fm U2 U2)) (fm I I)) f1)));
      [unfold V, U1, U2; ring | rewrite H; ring].
  Qed.

  (* unless S = 0, the quantity (1-Y^2) (X Y)^2 whose inverse square root ENCODE takes has one:  U2 / (2 S X Y) *)
  Lemma alg_sq_ok : S <> f0 -> Y <> f0 ->
    exists r, fm (fm r r) (fm (fm (fa f1 Y) (fs f1 Y)) (fm (fm X Y) (fm X Y))) = f1.
  Proof.
    intros Sn Yn. pose proof (alg_X_nz Sn) as Xn.
    set (T := fm (fm (fa f1 f1) S) (fm X Y)).
    assert (Tn : T <> f0) by (apply E_mul_nz; apply E_mul_nz; assumption || exact two_nzF).
    exists (fd U2 T).
    assert (K1 : fm (fd U2 T) T = U2) by (field; exact Tn).
    apply (fm_cancel_r _ _ (fm (fm (fa f1 f1) (fa f1 f1)) (fm S S)));
      [apply E_mul_nz; apply E_mul_nz; assumption || exact two_nzF|].
    transitivity (fm (fm (fa f1 Y) (fs f1 Y)) (fm (fm (fd U2 T) T) (fm (fd U2 T) T))); [unfold T; ring|].
    rewrite K1, alg_1mY2. ring.
  Qed.

  Lemma alg_1mY : fs f1 Y = fm (fm S S) (fa f1 Y).
  Proof.
    apply (fm_cancel_r _ _ U2 alg_U2_nz).
    transitivity (fs U2 (fm Y U2)); [ring|]. transitivity (fm (fm S S) (fa U2 (fm Y U2))); [|ring].
    rewrite alg_YU2. unfold U1, U2. ring.
  Qed.
End Alg.

Lemma decode_s_run K s P : decode_s K s = Some P ->
  exists I x y, P = {| px := x; py := y; pz := 1; pt := fmul K x y |} /\
    canon x /\ fis_neg x = false /\ canon y /\ F y <> f0 /\ fis_neg (fmul K x y) = false /\
    let S := F s in let U1 := fs f1 (fm S S) in let U2 := fa f1 (fm S S) in
    let V := fs (fo (fm dF (fm U1 U1))) (fm U2 U2) in
    fm (fm V (fm U2 U2)) (fm (F I) (F I)) = f1 /\
    fm (F x) (F x) = fm (fm (fm (fa f1 f1) S) (fm (F I) U2)) (fm (fm (fa f1 f1) S) (fm (F I) U2)) /\
    F y = fm U1 (fm (fm (F I) (fm (F I) U2)) V).
Proof.
  unfold decode_s.
  set (u1 := fsub K 1 (fsq K s)). set (u2 := fadd K 1 (fsq K s)).
  set (v := fsub K (fneg K (fmul K ed_d (fsq K u1))) (fsq K u2)).
  pose proof (sqrt_ratio_ok K 1 (fmul K v (fsq K u2))) as SQ.
  destruct (sqrt_ratio_m1 K 1 (fmul K v (fsq K u2))) as [ws I]. cbn [fst snd] in SQ.
  set (x := fabs K (fmul K (fmul K 2 s) (fmul K I u2))).
  set (y := fmul K u1 (fmul K (fmul K I (fmul K I u2)) v)).
  destruct ws; cbn [negb orb]; [|discriminate].
  destruct (fis_neg (fmul K x y)) eqn:Et; cbn [orb]; [discriminate|].
  destruct (y =? 0) eqn:Ey0; [discriminate|].
  intro E. injection E as <-. specialize (SQ eq_refl).
  assert (Cy : canon y) by (unfold y; apply fmod_canon).
  exists I, x, y. split; [reflexivity|].
  split; [unfold x; apply fabs_canon, fmod_canon|]. split; [unfold fis_neg, x; apply fabs_even, fmod_canon|].
  split; [exact Cy|]. split; [intro Z; apply Z.eqb_neq in Ey0; apply Ey0; now apply canon_zero|]. split; [exact Et|].
  cbv zeta.
  assert (E1 : F u1 = fs f1 (fm (F s) (F s))) by (unfold u1, fsq; now rewrite F_fsub, F_fmul, F_1).
  assert (E2 : F u2 = fa f1 (fm (F s) (F s))) by (unfold u2, fsq; now rewrite F_fadd, F_fmul, F_1).
  assert (Ev : F v = fs (fo (fm dF (fm (F u1) (F u1)))) (fm (F u2) (F u2))).
  { unfold v, fsq. now rewrite F_fsub, F_fneg, !F_fmul. }
  rewrite E1, E2 in Ev. rewrite <- Ev, <- E1, <- E2.
  split; [|split].
  - unfold fsq in SQ. rewrite !F_fmul, F_1 in SQ. exact SQ.
  - unfold x. rewrite F_fabs_sq, !F_fmul, F_2. reflexivity.
  - unfold y. now rewrite !F_fmul.
Qed.

Theorem decode_s_valid K s P : decode_s K s = Some P -> valid P.
Proof.
  intro D. destruct (decode_s_run K s P D) as (I & x & y & -> & _ & _ & _ & _ & _ & H & EX & EY).
  apply valid_z1. exact (alg_curve _ _ _ _ H EX EY).
Qed.

(* CompressedRistretto::decompress and Ctx::element_from_bytes of the ristretto backend: whatever is accepted is a valid
   point of the curve (and 32 bytes long, canonical and non-negative: Proofs/RistrettoWireP.v) *)
Lemma decompress_inv K bs P : decompress K bs = Some P ->
  length bs = 32%nat /\ le_int bs < fp /\ Z.odd (le_int bs) = false /\ decode_s K (le_int bs) = Some P.
Proof.
  unfold decompress. destruct (Nat.eqb_spec (length bs) 32) as [L|]; cbn [negb]; [|discriminate].
  destruct (Z.geb_spec (le_int bs) fp) as [|Lt]; cbn [orb]; [discriminate|].
  destruct (Z.odd (le_int bs)); [discriminate|]. intro D. repeat split; assumption.
Qed.

Lemma r_element_from_bytes_inv K bs P : r_element_from_bytes K bs = Ok P -> decompress K bs = Some P.
Proof.
  unfold r_element_from_bytes. destruct (length bs =? 32)%nat; [|discriminate].
  destruct (decompress K bs) as [Q|]; cbn [of_option_err]; [|discriminate]. intro H. now injection H as <-.
Qed.

Theorem decompress_valid K bs P : decompress K bs = Some P -> valid P.
Proof. intro D. destruct (decompress_inv K bs P D) as (_ & _ & _ & Ds). exact (decode_s_valid K _ P Ds). Qed.

Theorem r_element_from_bytes_valid K bs P : r_element_from_bytes K bs = Ok P -> valid P.
Proof. intro D. exact (decompress_valid K bs P (r_element_from_bytes_inv K bs P D)). Qed.

(* The curve equation in the form the Ed25519 decoder solves:  (d y^2 + 1) x^2 = y^2 - 1 *)
Lemma onc_sqrt_ratio (X Y : Fp) : onc (X, Y) <-> fm (fa (fm (fm Y Y) dF) f1) (fm X X) = fs (fm Y Y) f1.
Proof.
  unfold Edwards.onc. split; intro E.
  - transitivity (fa (fs (fm Y Y) f1) (fs (fa f1 (fm (fm (fm (fm dF X) X) Y) Y)) (fs (fm Y Y) (fm X X)))); [ring|].
    rewrite E. ring.
  - transitivity (fa (fa f1 (fm (fm (fm (fm dF X) X) Y) Y)) (fs (fs (fm Y Y) f1) (fm (fa (fm (fm Y Y) dF) f1) (fm X X)))); [ring|].
    rewrite E. ring.
Qed.

(* CompressedEdwardsY::decompress: whatever it accepts — the public key A and the commitment R of a signature — is a valid
   point of the curve, for every byte string (so the group-law theorems apply to everything the verifiers compute with) *)
Theorem ed_decompress_valid K bs P : ed_decompress K bs = Some P -> valid P.
Proof.
  unfold ed_decompress. destruct (negb (length bs =? 32)%nat); [discriminate|].
  remember (Z.testbit (le_int bs) 255) as sgn eqn:Esgn. clear Esgn.
  set (y := fmod K (Z.land (le_int bs) (2 ^ 255 - 1))).
  set (u := fsub K (fsq K y) 1). set (v := fadd K (fmul K (fsq K y) ed_d) 1).
  pose proof (sqrt_ratio_ok K u v) as SQ.
  destruct (sqrt_ratio_m1 K u v) as [ok x0]. cbn [fst snd] in SQ.
  destruct ok; cbn [negb]; [|discriminate]. specialize (SQ eq_refl).
  intro E. injection E as <-.
  set (x := if sgn then fneg K x0 else x0).
  assert (Ex2 : fm (F x) (F x) = fm (F x0) (F x0)).
  { unfold x. destruct sgn; [rewrite F_fneg; ring | reflexivity]. }
  apply valid_z1, onc_sqrt_ratio. rewrite Ex2.
  assert (Eu : F u = fs (fm (F y) (F y)) f1) by (unfold u, fsq; now rewrite F_fsub, F_fmul, F_1).
  assert (Ev : F v = fa (fm (fm (F y) (F y)) dF) f1) by (unfold v, fsq; now rewrite F_fadd, !F_fmul, F_1).
  rewrite <- Eu, <- Ev. exact SQ.
Qed.
