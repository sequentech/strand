(* Proofs/RistrettoCanon.v — RFC 9496: a string that DECODE accepts is THE canonical encoding of the point it denotes:
   ENCODE (DECODE bs) = bs for every byte string bs that the model's decompress accepts. Consequences: decoding is
   injective (two different accepted strings never denote the same point value), every accepted element re-serialises
   to exactly the bytes it came from (C11 "canonical encoding of a valid point", C12 on accepted ristretto elements), and
   encode -> encrypt -> decrypt -> decode is the identity at the byte level (C01). *)
From Coq Require Import ZArith Lia List.
From Coq Require Import Ncring Cring Integral_domain.
From Strand Require Import Base.ZUtil Base.Edwards Model.Outcome Model.Codec Model.Ristretto
  Model.RistrettoFast Model.Backend Model.Zkp Model.RBackend Proofs.CodecP Proofs.RistrettoGroup Proofs.RistrettoDecode Proofs.RistrettoEncode.
Import ListNotations.
Open Scope Z_scope.

Local Instance Fp_ops : @Ring_ops Fp f0 f1 fa fm fs fo (@eq Fp) := Fops Fp f0 f1 fa fm fs fo.
Local Instance Fp_ri : Ring (Ro:=Fp_ops) := Fri Fp f0 f1 fa fm fs fo fd fi Fth.
Local Instance Fp_cri : Cring (Rr:=Fp_ri) := Fcri Fp f0 f1 fa fm fs fo fd fi Fth.
Local Instance Fp_di : Integral_domain (Rcr:=Fp_cri) := Fdi Fp f0 f1 fa fm fs fo fd fi Fth F_dec.

Lemma le_fixed_le_int bs : bytes_ok bs -> le_fixed (length bs) (le_int bs) = bs.
Proof.
  induction bs as [|b r IH]; intro H; [reflexivity|].
  inversion H as [|? ? Hb Hr]; subst. cbn [length le_fixed]. rewrite le_int_cons.
  f_equal.
  - rewrite (Z.mul_comm 256), Z_mod_plus_full. now apply Z.mod_small.
  - rewrite (Z.mul_comm 256), Z.div_add by discriminate. rewrite (Z.div_small b 256) by exact Hb.
    rewrite Z.add_0_l. now apply IH.
Qed.

Lemma fis_neg_fabs K a : canon a -> fis_neg (fabs K a) = false.
Proof. intro Ca. unfold fis_neg. now apply fabs_even. Qed.

(* RFC 9496: ENCODE (DECODE s) = s for a canonical, non-negative s. The decoded point has Z = 1, its T = X Y is non-negative
   (no rotation) and so is X (no sign change), so by [compress_spec] the encoder returns the non-negative root of
   (X Y (1 - Y))^2 / W1 = s^2 *)
Theorem compress_decode_s K s P : canon s -> Z.odd s = false ->
  decode_s K s = Some P -> compress K P = le_fixed 32 s.
Proof.
  intros Cs Es Dec. pose proof (decode_s_valid K s P Dec) as V.
  pose proof (compress_spec K P V) as CS. pose proof (compress_degenerate K P V) as CD.
  destruct (decode_s_run K s P Dec) as (I & x & y & -> & Cx & Ex_even & Cy & Yn & Et & H & Ex2 & Ey).
  rewrite aff_z1 in CS, CD.
  destruct (F_dec (F s) f0) as [S0|Sn].
  - (* s = 0: X = 0, the degenerate case *)
    rewrite (canon_zero s Cs S0). apply CD. unfold W1. rewrite (alg_X_z _ _ _ Ex2 S0). ring.
  - pose proof (alg_sq_ok (F s) (F I) (F x) (F y) H Ex2 Ey Sn Yn) as Hs.
    destruct (CS Hs) as (s' & -> & Cs' & Es' & Q). f_equal.
    assert (R : rotF (F x) (F y) = false) by (unfold rotF; rewrite <- (fmul_zv K); exact Et).
    assert (N : negF (F x) (F y) = false) by (unfold negF, xsF; rewrite R, <- Cx; exact Ex_even).
    unfold dF', ysF in Q. rewrite R, N in Q.
    apply even_canon_unique; try assumption.
    apply (fm_cancel_r _ _ (W1 (F x) (F y)) (W1_sq_nz _ _ Hs)). rewrite Q. unfold W1.
    transitivity (fm (fm (fm (F x) (F y)) (fm (F x) (F y))) (fm (fs f1 (F y)) (fm (fm (F s) (F s)) (fa f1 (F y))))); [|ring].
    rewrite <- (alg_1mY (F s) (F I) (F y) H Ey). ring.
Qed.

(* CompressedRistretto::decompress: an accepted string is the canonical encoding of the point it denotes *)
Theorem decompress_canonical K bs P : bytes_ok bs -> decompress K bs = Some P -> compress K P = bs.
Proof.
  intros Hb D. destruct (decompress_inv K bs P D) as (EL & Hi & Eo & Ds).
  pose proof (le_int_bound bs Hb) as [Lo _].
  rewrite (compress_decode_s K (le_int bs) P (proj2 (canon_iff _) (conj Lo Hi)) Eo Ds).
  rewrite <- EL. apply le_fixed_le_int. exact Hb.
Qed.

Corollary decompress_injective K bs1 bs2 P : bytes_ok bs1 -> bytes_ok bs2 ->
  decompress K bs1 = Some P -> decompress K bs2 = Some P -> bs1 = bs2.
Proof. intros H1 H2 D1 D2. rewrite <- (decompress_canonical K bs1 P H1 D1). apply decompress_canonical; assumption. Qed.

Corollary r_element_bytes_canonical K bs P : bytes_ok bs -> r_element_from_bytes K bs = Ok P -> compress K P = bs.
Proof. intros Hb D. exact (decompress_canonical K bs P Hb (r_element_from_bytes_inv K bs P D)). Qed.

(* [first_some] and [zseq] of Model/RBackend.v, the candidate search of Ctx::encode *)
Lemma first_some_spec {A C} (f : A -> option C) l c : first_some f l = Some c -> exists a, In a l /\ f a = Some c.
Proof.
  induction l as [|a r IH]; cbn [first_some]; [discriminate|].
  destruct (f a) as [c'|] eqn:E.
  - intro H. injection H as <-. exists a. split; [now left | exact E].
  - intro H. destruct (IH H) as (a' & I & Ea). exists a'. split; [now right | exact Ea].
Qed.

Lemma first_some_hd {A C} (f : A -> option C) a l c : f a = Some c -> first_some f (a :: l) = Some c.
Proof. intro H. cbn [first_some]. now rewrite H. Qed.

Lemma zseq_range n z : In z (zseq n) -> 0 <= z < Z.of_nat n.
Proof. unfold zseq. rewrite in_map_iff. intros (k & <- & Hk). apply in_seq in Hk. lia. Qed.

(* the first candidate string that Ctx::encode tries (both counters 0), if it decodes, is what encode returns *)
Lemma r_encode_first K data P : decompress K (0 :: data ++ [0]) = Some P -> r_encode K data = Ok P.
Proof.
  intro H. unfold r_encode. change (zseq 64) with (0 :: map Z.of_nat (seq 1 63)).
  rewrite (first_some_hd (fun j => first_some (fun i => decompress K (2 * i :: data ++ [j])) (zseq 128)) 0 (map Z.of_nat (seq 1 63)) P);
    [reflexivity|].
  exact (first_some_hd (fun i => decompress K (2 * i :: data ++ [0])) 0 (map Z.of_nat (seq 1 127)) P H).
Qed.

Lemma r_encode_candidate K data P : r_encode K data = Ok P ->
  exists i j, 0 <= i < 128 /\ 0 <= j < 64 /\ decompress K ((2 * i) :: data ++ [j]) = Some P.
Proof.
  unfold r_encode. destruct (first_some _ (zseq 64)) as [Q|] eqn:E1; cbn [of_option_err]; [|discriminate].
  intro H. injection H as <-.
  destruct (first_some_spec _ _ _ E1) as (j & Ij & E2). destruct (first_some_spec _ _ _ E2) as (i & Ii & E3).
  exists i, j. split; [exact (zseq_range 128 i Ii)|]. split; [exact (zseq_range 64 j Ij) | exact E3].
Qed.

(* the all-zero string decodes to the neutral element: one evaluation of DECODE (a power with the 252-bit exponent (p-5)/8),
   shared by the non-vacuity examples of C11 and C14. They are closed under the global context, so it runs on plain
   integers, with the folding kernel of Model/RistrettoFast.v, not over BigZ. *)
Lemma decompress_zeros : decompress K_ref (repeat 0 32) = Some pt_id.
Proof. rewrite <- (decompress_K K_25519). vm_compute. reflexivity. Qed.

(* whatever element encode returns for a 30-byte plaintext decodes back to that plaintext, and is a valid curve point:
   the embedding is invertible on its domain of success, hence injective *)
Theorem r_encode_decode K data P : bytes_ok data -> length data = 30%nat ->
  r_encode K data = Ok P -> r_decode K P = data /\ valid P.
Proof.
  intros Hd Ld Enc. destruct (r_encode_candidate K data P Enc) as (i & j & Ii & Ij & E3).
  assert (Hb : bytes_ok ((2 * i) :: data ++ [j])).
  { constructor; [lia|]. apply bytes_ok_app. split; [exact Hd|]. constructor; [lia|constructor]. }
  split; [|exact (decompress_valid K _ _ E3)].
  unfold r_decode. rewrite (decompress_canonical K _ _ Hb E3). cbn [skipn].
  rewrite firstn_app, Ld, Nat.sub_diag, firstn_O, app_nil_r. rewrite <- Ld. apply firstn_all.
Qed.

Corollary r_encode_injective K d1 d2 P : bytes_ok d1 -> bytes_ok d2 -> length d1 = 30%nat -> length d2 = 30%nat ->
  r_encode K d1 = Ok P -> r_encode K d2 = Ok P -> d1 = d2.
Proof.
  intros H1 H2 L1 L2 E1 E2. destruct (r_encode_decode K d1 P H1 L1 E1) as [<- _].
  destruct (r_encode_decode K d2 P H2 L2 E2) as [D _]. exact D.
Qed.

Section Api.
  Variable K : Kernel.
  Variable PM : PMul.
  Notation B := (RB K PM).

  (* encode -> encrypt -> decrypt -> decode is the identity on every 30-byte plaintext for which encode succeeds,
     for every key and every randomness; and the decrypted element serialises to the very bytes of the encoded one *)
  Theorem rb_api_roundtrip data m sk r : bytes_ok data -> length data = 30%nat -> r_encode K data = Ok m ->
    exists d, decrypt B sk (encrypt_with_randomness B (pk_of_sk B sk) m r) = Ok d /\
              r_decode K d = data /\ b_ser_e B d = b_ser_e B m.
  Proof.
    intros Hd Ld Enc.
    destruct (r_encode_decode K data m Hd Ld Enc) as [Dm Vm].
    destruct (r_encode_candidate K data m Enc) as (i & j & _ & _ & E3). pose proof (decompress_sq K _ _ E3) as SQm.
    destruct (rb_elgamal_roundtrip K PM sk r m Vm) as (d & Dd & Vd & Ad & _).
    exists d. split; [exact Dd|].
    assert (C : compress K d = compress K m).
    { apply compress_aff; [exact Vd | exact Vm | exact Ad | rewrite Ad; exact SQm]. }
    split; [|exact C].
    unfold r_decode. rewrite C. exact Dm.
  Qed.
End Api.
