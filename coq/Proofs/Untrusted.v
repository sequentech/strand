(* Proofs/Untrusted.v — from bytes to a verdict without panic: whatever decodes as a shuffle proof and as
   ciphertext lists is well-formed input for the verifier (C11), on which the verifier is total (C04). *)
From Coq Require Import ZArith List Lia.
From Strand Require Import Base.ZUtil Model.Outcome Model.Codec Model.Backend Model.ZBackend Model.Zkp
  Model.Wire Model.Shuffler Model.Exec Proofs.ZLaws Proofs.CodecP Proofs.WireP Proofs.ShuffleSpec.
Import ListNotations.
Open Scope Z_scope.

Section U.
  Variable K : Kernel.
  Variable fl : flavor.
  Variable P : Params.
  Hypothesis G : GoodParams P.
  Notation B := (ZB K fl P).

  Lemma of_wire_wf bs w : bytes_ok bs -> de_proof K fl P bs = Ok w ->
    wf_proof B (member P) (of_wire K fl P w).
  Proof.
    intros Hb Hd.
    destruct (decoded_proof_wf K fl P (gp_p P G) bs w Hd Hb)
      as (H1 & H2 & H3 & H4 & H5 & H6 & H7 & H8 & H9 & H10 & H11 & H12 & H13 & H14).
    assert (F1 : Forall (fun x => 0 <= x) (sp_s_hats w)) by (eapply Forall_impl; [|exact H13]; cbv beta; intros; lia).
    assert (F2 : Forall (fun x => 0 <= x) (sp_s_primes w)) by (eapply Forall_impl; [|exact H14]; cbv beta; intros; lia).
    unfold wf_proof, of_wire. cbn.
    refine (conj H1 (conj H2 (conj H3 (conj H4 (conj H5 (conj H6 (conj _ (conj _ (conj _ (conj _
           (conj F1 (conj F2 (conj H7 H8))))))))))))); lia.
  Qed.

  Theorem decode_then_check_total : forall pfb csb csb' pk h0 hs label w es es',
    bytes_ok pfb -> bytes_ok csb -> bytes_ok csb' ->
    de_proof K fl P pfb = Ok w ->
    strict (rd_vecC K fl P) csb = Ok es -> strict (rd_vecC K fl P) csb' = Ok es' ->
    member P pk -> member P h0 -> Forall (member P) hs -> length hs = length es ->
    exists b, check_proof B pk (h0 :: hs) (of_wire K fl P w) es es' label = Ok b.
  Proof.
    intros pfb csb csb' pk h0 hs label w es es' Hb1 Hb2 Hb3 Hd He He' Hpk Hh0 Hhs Hl.
    apply (check_proof_total B (member P) (ZB_laws K fl P G)); try assumption.
    - exact (val_vecC_any K fl P (gp_p P G) _ _ _ (strict_inv _ _ _ He)).
    - exact (val_vecC_any K fl P (gp_p P G) _ _ _ (strict_inv _ _ _ He')).
    - exact (of_wire_wf pfb w Hb1 Hd).
  Qed.
End U.
