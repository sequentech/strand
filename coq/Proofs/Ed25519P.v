(* Proofs/Ed25519P.v — decision facts about the executable Ed25519 model (Model/Ed25519.v) that need no group law:
   both verification procedures (ed25519-zebra / ZIP-215 and ed25519-dalek) refuse every signature whose S half is not
   the canonical 32-byte encoding of an integer below the group order — in particular the classic malleation
   S -> S + l of a valid signature — and neither ever panics; a signature has exactly 64 bytes. *)
From Coq Require Import ZArith List Bool Lia.
From Strand Require Import Base.ZUtil Model.Outcome Model.Codec Model.Sha512 Model.Zkp Model.Ristretto Model.RistrettoFast
  Model.Ed25519 Proofs.CodecP.
Import ListNotations.
Open Scope Z_scope.

Section EdP.
  Variable K : Kernel.
  Variable PM : PMul.

  Lemma canonical_none_iff b : sc_from_canonical_bytes b = None <-> (length b <> 32%nat \/ ell <= le_int b).
  Proof.
    unfold sc_from_canonical_bytes. destruct (Nat.eqb_spec (length b) 32) as [E|E]; cbn [negb].
    - destruct (Z.ltb_spec (le_int b) ell) as [Hlt|Hge]; split; intro H0; try discriminate; try reflexivity.
      + destruct H0 as [H0|H0]; [congruence|lia].
      + right. lia.
    - split; intro; [left; exact E|reflexivity].
  Qed.

  Theorem noncanonical_S_rejected pk sig msg : sc_from_canonical_bytes (skipn 32 sig) = None ->
    ed_verify_zebra K PM pk sig msg <> Ok true /\ ed_verify_dalek K PM pk sig msg <> Ok true.
  Proof.
    intro H. unfold ed_verify_zebra, ed_verify_dalek. destruct (ed_decompress K pk) as [A|]; [|split; discriminate].
    rewrite H. split; [|discriminate]. destruct (ed_decompress K (firstn 32 sig)); discriminate.
  Qed.

  Theorem malleated_signature_rejected pk Rb S msg : length Rb = 32%nat -> 0 <= S -> S + ell < 2 ^ 256 ->
    let sig' := Rb ++ le_fixed 32 (S + ell) in
    ed_verify_zebra K PM pk sig' msg <> Ok true /\ ed_verify_dalek K PM pk sig' msg <> Ok true.
  Proof.
    intros LR HS Hb sig'. apply noncanonical_S_rejected. subst sig'.
    assert (E : skipn 32 (Rb ++ le_fixed 32 (S + ell)) = le_fixed 32 (S + ell)).
    { rewrite <- LR. rewrite skipn_app, skipn_all, Nat.sub_diag. reflexivity. }
    rewrite E. apply canonical_none_iff. right. rewrite le_fixed_int; [lia|].
    assert (256 ^ Z.of_nat 32 = 2 ^ 256) by (vm_compute; reflexivity). pose proof (Z.lt_le_incl 0 ell ltac:(vm_compute; reflexivity)). lia.
  Qed.

  Theorem wrong_length_S_rejected pk sig msg : length sig <> 64%nat -> (32 <= length sig)%nat ->
    ed_verify_zebra K PM pk sig msg <> Ok true /\ ed_verify_dalek K PM pk sig msg <> Ok true.
  Proof.
    intros H1 H2. apply noncanonical_S_rejected. apply canonical_none_iff. left. rewrite skipn_length. lia.
  Qed.

  Theorem verify_never_panics pk sig msg : ed_verify_zebra K PM pk sig msg <> Panic /\ ed_verify_dalek K PM pk sig msg <> Panic.
  Proof.
    unfold ed_verify_zebra, ed_verify_dalek. destruct (ed_decompress K pk); [|split; discriminate].
    destruct (sc_from_canonical_bytes (skipn 32 sig)); [|split; discriminate].
    split; [|discriminate]. destruct (ed_decompress K (firstn 32 sig)); discriminate.
  Qed.

  Theorem signature_has_64_bytes seed msg : length (ed_sign K PM seed msg) = 64%nat.
  Proof.
    unfold ed_sign. destruct (ed_expand seed) as [a prefix]. rewrite app_length.
    unfold ed_compress, sc_to_bytes. rewrite !le_fixed_len. reflexivity.
  Qed.
End EdP.
Print Assumptions malleated_signature_rejected.
Print Assumptions verify_never_panics.
Print Assumptions signature_has_64_bytes.
