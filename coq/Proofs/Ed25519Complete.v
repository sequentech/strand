(* Proofs/Ed25519Complete.v — byte-level completeness of the executable Ed25519 model: decoding the encoding of a valid
   point returns the same curve point, and encoding depends on the curve point only; hence every signature the model
   produces is accepted by the models of both verification procedures, ed25519-zebra (ZIP-215: cofactored equation on
   the decoded R) and ed25519-dalek `verify` (byte comparison of the re-encoded R'), for every seed and every message.
   No hypothesis: the group law, the square-root computation and the codec are all proved (Base/Edwards.v,
   Proofs/SqrtRatio.v). *)
From Coq Require Import ZArith Lia.
From Coq Require Import Ncring Cring Integral_domain.
From Strand Require Import Base.ZUtil Base.ZpField Base.Edwards Model.Outcome Model.Codec Model.Ristretto
  Model.RistrettoFast Model.Ed25519 Proofs.CodecP Proofs.RistrettoGroup Proofs.RistrettoDecode
  Proofs.SqrtRatio Proofs.Ed25519Group.
Open Scope Z_scope.

Local Instance Fp_ops : @Ring_ops Fp f0 f1 fa fm fs fo (@eq Fp) := Fops Fp f0 f1 fa fm fs fo.
Local Instance Fp_ri : Ring (Ro:=Fp_ops) := Fri Fp f0 f1 fa fm fs fo fd fi Fth.
Local Instance Fp_cri : Cring (Rr:=Fp_ri) := Fcri Fp f0 f1 fa fm fs fo fd fi Fth.
Local Instance Fp_di : Integral_domain (Rcr:=Fp_cri) := Fdi Fp f0 f1 fa fm fs fo fd fi Fth F_dec.

Lemma pack_land y b : 0 <= y < 2 ^ 255 -> Z.land (y + (if b : bool then 2 ^ 255 else 0)) (2 ^ 255 - 1) = y.
Proof.
  intro Hy. change (2 ^ 255 - 1) with (Z.ones 255). rewrite Z.land_ones by discriminate.
  destruct b.
  - replace (y + 2 ^ 255) with (y + 1 * 2 ^ 255) by ring. rewrite Z_mod_plus_full. now apply Z.mod_small.
  - rewrite Z.add_0_r. now apply Z.mod_small.
Qed.

Lemma pack_testbit y b : 0 <= y < 2 ^ 255 -> Z.testbit (y + (if b : bool then 2 ^ 255 else 0)) 255 = b.
Proof.
  intro Hy. rewrite Z.testbit_odd, Z.shiftr_div_pow2 by discriminate.
  destruct b.
  - replace (y + 2 ^ 255) with (y + 1 * 2 ^ 255) by ring. rewrite Z.div_add by discriminate.
    rewrite Z.div_small by exact Hy. reflexivity.
  - rewrite Z.add_0_r, Z.div_small by exact Hy. reflexivity.
Qed.

Lemma fp_lt_255 : fp < 2 ^ 255.  Proof. reflexivity. Qed.

Lemma F_finv K a : F (finv K a) = fi (F a).
Proof. unfold finv. rewrite F_fpow. symmetry. apply (zinv_eq fp). Qed.

(* the affine coordinate a/z as ed_compress computes it *)
Lemma finv_div K a z : F (fmul K a (finv K z)) = fd (F a) (F z).
Proof. rewrite F_fmul, F_finv. reflexivity. Qed.

(* the decoder's choice between the roots: from the non-negative root a of x^2 and the sign bit of x it rebuilds x *)
Lemma sign_select K x a : canon x -> canon a -> Z.odd a = false -> fm (F a) (F a) = fm (F x) (F x) ->
  (if Z.odd x then fneg K a else a) = x.
Proof.
  intros Cx Ca Ea S. destruct (Z.odd x) eqn:O.
  - assert (E : a = fneg K x).
    { apply even_canon_unique; [exact Ca | apply fmod_canon | exact Ea | | rewrite F_fneg, S; ring].
      rewrite fneg_odd, O; [reflexivity | exact Cx | intros ->; discriminate O]. }
    rewrite E. now apply fneg_fneg.
  - now apply even_canon_unique.
Qed.

(* decoding the encoding of a valid point gives back the same curve point: the affine coordinates x, y that ed_compress
   packs are canonical, so unpacking returns y and the sign bit of x; (x, y) is on the curve, so u/v = (y^2-1)/(d y^2+1)
   is the square x^2 and SQRT_RATIO_M1 finds its non-negative root; the sign bit then selects x *)
Theorem ed_decompress_compress K P : valid P ->
  exists Q, ed_decompress K (ed_compress K P) = Some Q /\ valid Q /\ aff Q = aff P.
Proof.
  intros (_ & C & _).
  unfold ed_compress.
  set (zi := finv K (pz P)). set (x := fmul K (px P) zi). set (y := fmul K (py P) zi).
  assert (Cx : canon x) by apply fmod_canon. assert (Cy : canon y) by apply fmod_canon.
  pose proof (proj1 (canon_iff x) Cx) as Rx. pose proof (proj1 (canon_iff y) Cy) as Ry. pose proof fp_lt_255 as Hfp.
  unfold aff in C |- *. rewrite <- (finv_div K (px P)), <- (finv_div K (py P)) in C |- *. fold zi x y in C |- *.
  set (b := fis_neg x). set (n := y + (if b then 2 ^ 255 else 0)).
  unfold ed_decompress. rewrite le_fixed_len. cbn [Nat.eqb negb].
  assert (En : le_int (le_fixed 32 n) = n).
  { apply le_fixed_int. unfold n. change (256 ^ Z.of_nat 32) with (2 ^ 256). destruct b; lia. }
  assert (Ey : fmod K y = y).
  { rewrite (fmod_K K). unfold fmod. cbn [k_mod K_ref]. apply Z.mod_small. exact Ry. }
  assert (El : fmod K (Z.land n (2 ^ 255 - 1)) = y) by (unfold n; rewrite pack_land by lia; exact Ey).
  assert (Et : Z.testbit n 255 = b) by (unfold n; apply pack_testbit; lia).
  rewrite En, El, Et.
  set (u := fsub K (fsq K y) 1). set (v := fadd K (fmul K (fsq K y) ed_d) 1).
  assert (Eu : F u = fs (fm (F y) (F y)) f1) by (unfold u, fsq; now rewrite F_fsub, F_fmul, F_1).
  assert (Ev : F v = fa (fm (fm (F y) (F y)) dF) f1) by (unfold v, fsq; now rewrite F_fadd, !F_fmul, F_1).
  assert (Hv : F v <> f0) by (rewrite Ev; apply E_one_plus_dyy).
  assert (Hux : F u = fm (fm (F x) (F x)) (F v)).
  { rewrite Eu, Ev, <- (proj1 (onc_sqrt_ratio _ _) C). ring. }
  assert (Ru : 0 <= u < fp) by (apply canon_iff; unfold u; apply fmod_canon).
  pose proof (sqrt_ratio_complete K u v (F x) Ru Hv Hux) as W.
  pose proof (sqrt_ratio_ok K u v W) as SQ.
  destruct (sqrt_ratio_snd K u v) as [Cr Er].
  destruct (sqrt_ratio_m1 K u v) as [ok r0]. cbn [fst snd] in W, SQ, Cr, Er. subst ok. cbn [negb].
  assert (S : fm (F r0) (F r0) = fm (F x) (F x)).
  { apply (fm_cancel_r _ _ (F v) Hv). transitivity (F u); [rewrite <- SQ; ring | rewrite Hux; ring]. }
  pose proof (sign_select K x r0 Cx Cr Er S) as Sel. fold (fis_neg x) in Sel. fold b in Sel. rewrite Sel.
  eexists. split; [reflexivity|]. split; [exact (valid_z1 K x y C) | apply aff_z1].
Qed.

Lemma finv_div_eq K a z a' z' : fd (F a) (F z) = fd (F a') (F z') -> fmul K a (finv K z) = fmul K a' (finv K z').
Proof. intro E. apply canon_eq; [apply fmod_canon ..|]. rewrite !finv_div. exact E. Qed.

Lemma ed_compress_aff K P Q : aff P = aff Q -> ed_compress K P = ed_compress K Q.
Proof.
  intro E. unfold ed_compress.
  rewrite (finv_div_eq K _ _ _ _ (f_equal fst E)), (finv_div_eq K _ _ _ _ (f_equal snd E)). reflexivity.
Qed.

Lemma bytes_eqb_refl bs : Zkp.bytes_eqb bs bs = true.
Proof. induction bs as [|b r IH]; cbn; [reflexivity|]. now rewrite Z.eqb_refl, IH. Qed.

Lemma ed_compress_len K P : length (ed_compress K P) = 32%nat.
Proof. unfold ed_compress. apply le_fixed_len. Qed.

Lemma h_scalar_range K bs : 0 <= h_scalar K bs < ell.
Proof. unfold h_scalar, sc_from_bytes_mod_order. apply smod_range. Qed.

Lemma sc_roundtrip S : 0 <= S < ell -> sc_from_canonical_bytes (sc_to_bytes S) = Some S.
Proof.
  intro H. unfold sc_from_canonical_bytes, sc_to_bytes. rewrite le_fixed_len. cbn [Nat.eqb negb].
  assert (E : le_int (le_fixed 32 S) = S).
  { apply le_fixed_int. change (256 ^ Z.of_nat 32) with (2 ^ 256). assert (ell < 2 ^ 256) by reflexivity. lia. }
  rewrite E. destruct (Z.ltb_spec S ell); [reflexivity|lia].
Qed.

Section Sign.
  Variable K : Kernel.
  Variable PM : PMul.

  Lemma ed_sign_parts seed msg : exists a r A',
    0 <= a /\ 0 <= r /\
    ed_decompress K (ed_pk K PM seed) = Some A' /\ valid A' /\ aff A' = nmul (Z.to_nat a) (aff (pt_base K)) /\
    let Rb := ed_compress K (pm_mul PM r (pt_base K)) in
    let k := h_scalar K (Rb ++ ed_pk K PM seed ++ msg) in
    0 <= k /\ firstn 32 (ed_sign K PM seed msg) = Rb /\
    sc_from_canonical_bytes (skipn 32 (ed_sign K PM seed msg)) = Some (sc_add K r (sc_mul K k a)).
  Proof.
    unfold ed_pk, ed_sign. destruct (ed_expand seed) as [a0 prefix].
    destruct (pm_correct PM (smod K a0) _ (valid_base K)) as [VA AA].
    destruct (ed_decompress_compress K _ VA) as (A' & DA & VA' & AA').
    exists (smod K a0), (h_scalar K (prefix ++ msg)), A'.
    split; [apply smod_range|]. split; [apply h_scalar_range|]. split; [exact DA|]. split; [exact VA'|].
    split; [now rewrite AA'|]. cbv zeta. set (Rb := ed_compress K (pm_mul PM (h_scalar K (prefix ++ msg)) (pt_base K))).
    assert (LR : length Rb = 32%nat) by apply ed_compress_len.
    split; [apply h_scalar_range|]. split.
    - rewrite firstn_app, LR, Nat.sub_diag, firstn_O, app_nil_r. rewrite <- LR. apply firstn_all.
    - rewrite skipn_app, LR, Nat.sub_diag. rewrite <- LR at 1. rewrite skipn_all. apply sc_roundtrip, smod_range.
  Qed.

  (* ed25519-zebra (ZIP-215 rules): for EVERY 32-byte-or-not seed and EVERY message the signature the model produces is
     accepted under the public key the model derives — the end-to-end "valid signatures verify" of C20, on the model *)
  Theorem ed_sign_verify_zebra seed msg :
    ed_verify_zebra K PM (ed_pk K PM seed) (ed_sign K PM seed msg) msg = Ok true.
  Proof.
    destruct (ed_sign_parts seed msg) as (a & r & A' & Ha & Hr & DA & VA' & AA' & Hk & F32 & S32).
    unfold ed_verify_zebra. rewrite DA, F32, S32.
    destruct (pm_correct PM r _ (valid_base K)) as [VR AR].
    destruct (ed_decompress_compress K _ VR) as (R' & -> & VR' & AR'). f_equal.
    apply (ed_equation_complete_gen K PM A' R' a r); try assumption. now rewrite AR'.
  Qed.

  (* ed25519-dalek (`verify`, byte comparison of the re-encoded R'): likewise *)
  Theorem ed_sign_verify_dalek seed msg :
    ed_verify_dalek K PM (ed_pk K PM seed) (ed_sign K PM seed msg) msg = Ok true.
  Proof.
    destruct (ed_sign_parts seed msg) as (a & r & A' & Ha & Hr & DA & VA' & AA' & Hk & F32 & S32).
    unfold ed_verify_dalek. rewrite DA, F32, S32. f_equal.
    destruct (pm_correct PM r _ (valid_base K)) as [_ AR].
    destruct (ed_rprime_aff K PM A' a r _ Ha Hr Hk VA' AA') as [_ Arp].
    rewrite (ed_compress_aff K _ (pm_mul PM r (pt_base K))) by (now rewrite Arp). apply bytes_eqb_refl.
  Qed.
End Sign.
