(* Proofs/CodecP.v — byte-level facts about Model/Codec.v: integer <-> bytes round trips and length bounds; the
   readers of the model as chains of four combinators; three properties of readers, each closed under the
   combinators; the borsh primitives in those terms.  The properties:
     np_reader rd   no input makes [rd] panic;
     INV Q v rd     on an input satisfying [Q], what [rd] returns satisfies [v] and what it leaves satisfies [Q].
                    Lemmas inv_x hold for every [Q] that passes to the parts of a string ([splits]); lemmas val_x
                    are the case [Q] = [bytes_ok], stated where the bound on the value needs the input to be real
                    bytes (Proofs/WireP.v writes [INV bytes_ok v rd] out as [VAL v rd]);
     enc rd a w     [rd] takes [a] off [w] whatever follows, and fails on every strict prefix of [w].
   For a writer, [forall a, v a -> enc rd a (wr a)] is proved first; its two halves are [RT v wr rd] and [PF v wr rd]
   (enc_rt, enc_pf), and from those come strict decoding, refusal of trailing bytes and of truncation, and writers
   that are self-delimiting, hence injective (Proofs/WireP.v, Proofs/TranscriptP.v). *)
From Coq Require Import ZArith List Bool Lia.
From Strand Require Import Model.Outcome Model.Codec.
Import ListNotations.
Open Scope Z_scope.

Definition bytes_ok (bs : bytes) : Prop := Forall (fun b => 0 <= b < 256) bs.

Lemma bytes_ok_app a b : bytes_ok (a ++ b) <-> bytes_ok a /\ bytes_ok b.
Proof. unfold bytes_ok. apply Forall_app. Qed.

Lemma bytes_ok_rev a : bytes_ok a -> bytes_ok (rev a).
Proof. unfold bytes_ok. apply Forall_rev. Qed.

(* the test of Natural::from_digits_desc(&256, ..) on digits that are known to be non-negative *)
Lemma bytes_ok_ltb l : bytes_ok l <-> Forall (fun d => 0 <= d) l /\ forallb (fun d => d <? 256) l = true.
Proof.
  unfold bytes_ok. rewrite forallb_forall, !Forall_forall. split.
  - intro H. split; intros d Hd; [|apply Z.ltb_lt]; apply H, Hd.
  - intros [H0 H1] d Hd. split; [apply H0|apply Z.ltb_lt, H1]; exact Hd.
Qed.

Lemma pow256 n : 0 <= n -> 2 ^ (8 * n) = 256 ^ n.
Proof. intro Hn. rewrite Z.pow_mul_r by lia. reflexivity. Qed.

Lemma pow256_pos n : 0 < 256 ^ Z.of_nat n.
Proof. apply Z.pow_pos_nonneg; lia. Qed.

Lemma pow256_S n : 256 ^ Z.of_nat (S n) = 256 * 256 ^ Z.of_nat n.
Proof. rewrite Nat2Z.inj_succ, Z.pow_succ_r by lia. reflexivity. Qed.

Lemma le_int_nil : le_int [] = 0.
Proof. reflexivity. Qed.

Lemma le_int_cons b bs : le_int (b :: bs) = b + 256 * le_int bs.
Proof. reflexivity. Qed.

Lemma le_int_bound bs : bytes_ok bs -> 0 <= le_int bs < 256 ^ Z.of_nat (length bs).
Proof.
  induction 1 as [|b bs Hb Hbs IH].
  - rewrite le_int_nil. cbn [length]. change (256 ^ Z.of_nat 0) with 1. lia.
  - rewrite le_int_cons. cbn [length]. rewrite pow256_S. lia.
Qed.

Lemma be_int_snoc l b : be_int (l ++ [b]) = be_int l * 256 + b.
Proof. unfold be_int. rewrite fold_left_app. reflexivity. Qed.

Lemma be_int_rev l : be_int (rev l) = le_int l.
Proof.
  induction l as [|b l IH]; [reflexivity|].
  cbn [rev]. rewrite be_int_snoc, IH, le_int_cons. lia.
Qed.

Lemma be_int_le_int l : be_int l = le_int (rev l).
Proof. rewrite <- be_int_rev, rev_involutive. reflexivity. Qed.

Lemma be_int_bound bs : bytes_ok bs -> 0 <= be_int bs < 256 ^ Z.of_nat (length bs).
Proof.
  intro H. rewrite be_int_le_int, <- (rev_length bs). apply le_int_bound, bytes_ok_rev, H.
Qed.

Lemma digit_step n x : 0 <= x < 256 ^ Z.of_nat (S n) ->
  x mod 256 + 256 * (x / 256) = x /\ 0 <= x / 256 < 256 ^ Z.of_nat n.
Proof.
  rewrite pow256_S. intro Hx. pose proof (Z.div_mod x 256 ltac:(lia)).
  split; [lia|]. split; [apply Z.div_pos; lia|apply Z.div_lt_upper_bound; lia].
Qed.

Lemma le_digits_fuel_int f : forall x, 0 <= x < 256 ^ Z.of_nat f -> le_int (le_digits_fuel f x) = x.
Proof.
  induction f as [|f IH]; intros x Hx.
  - change (256 ^ Z.of_nat 0) with 1 in Hx. cbn [le_digits_fuel]. rewrite le_int_nil. lia.
  - cbn [le_digits_fuel]. destruct (Z.leb_spec x 0) as [H0|H0].
    + rewrite le_int_nil. lia.
    + destruct (digit_step f x Hx) as [E Hd]. rewrite le_int_cons, (IH _ Hd). exact E.
Qed.

Lemma le_digits_fuel_ok f : forall x, bytes_ok (le_digits_fuel f x).
Proof.
  induction f as [|f IH]; intros x; cbn [le_digits_fuel]; [constructor|].
  destruct (x <=? 0); [constructor|]. constructor; [|apply IH].
  apply Z.mod_pos_bound; lia.
Qed.

Lemma le_digits_fuel_len n : forall f x, x < 256 ^ Z.of_nat n ->
  (length (le_digits_fuel f x) <= n)%nat.
Proof.
  induction n as [|n IH]; intros f x Hx.
  - change (256 ^ Z.of_nat 0) with 1 in Hx. destruct f; cbn [le_digits_fuel length]; [lia|].
    destruct (Z.leb_spec x 0); [cbn [length]; lia | lia].
  - destruct f; cbn [le_digits_fuel length]; [lia|].
    destruct (Z.leb_spec x 0) as [H0|H0]; cbn [length]; [lia|].
    apply le_n_S, IH. rewrite pow256_S in Hx. apply Z.div_lt_upper_bound; lia.
Qed.

Lemma le_digits_fuel_enough x : 0 < x -> x < 256 ^ Z.of_nat (S (Z.to_nat (Z.log2 x / 8))).
Proof.
  intro Hx. pose proof (Z.log2_spec x Hx) as [_ Hu]. pose proof (Z.log2_nonneg x) as HL.
  set (L := Z.log2 x) in *.
  assert (Hk : 0 <= L / 8) by (apply Z.div_pos; lia).
  rewrite Nat2Z.inj_succ, Z2Nat.id by exact Hk.
  rewrite <- pow256 by lia.
  eapply Z.lt_le_trans; [exact Hu|].
  apply Z.pow_le_mono_r; [lia|].
  pose proof (Z.div_mod L 8 ltac:(lia)). pose proof (Z.mod_pos_bound L 8 ltac:(lia)). lia.
Qed.

Lemma le_digits_0 : le_digits 0 = [].
Proof. reflexivity. Qed.

Lemma le_digits_int x : 0 <= x -> le_int (le_digits x) = x.
Proof.
  intro Hx. destruct (Z.eq_dec x 0) as [->|Hn]; [reflexivity|].
  unfold le_digits. apply le_digits_fuel_int. split; [lia|]. apply le_digits_fuel_enough. lia.
Qed.

Lemma le_digits_ok x : bytes_ok (le_digits x).
Proof. apply le_digits_fuel_ok. Qed.

Lemma le_digits_len_nat n x : x < 256 ^ Z.of_nat n -> (length (le_digits x) <= n)%nat.
Proof. apply le_digits_fuel_len. Qed.

Lemma le_digits_len n x : 0 <= n -> x < 256 ^ n -> Z.of_nat (length (le_digits x)) <= n.
Proof.
  intros Hn Hx. rewrite <- (Z2Nat.id n Hn) in Hx. apply le_digits_len_nat in Hx. lia.
Qed.

Lemma le_digits_nonempty x : 0 < x -> le_digits x <> [].
Proof.
  intros Hx E. pose proof (le_digits_int x ltac:(lia)) as H. rewrite E, le_int_nil in H. lia.
Qed.

Lemma le_bytes_min_int x : 0 <= x -> le_int (le_bytes_min x) = x.
Proof.
  intro Hx. unfold le_bytes_min. destruct (Z.leb_spec x 0); [|apply le_digits_int, Hx].
  cbn. lia.
Qed.

Lemma le_bytes_min_ok x : bytes_ok (le_bytes_min x).
Proof.
  unfold le_bytes_min. destruct (x <=? 0); [|apply le_digits_ok].
  constructor; [lia|constructor].
Qed.

Lemma le_bytes_min_len n x : 1 <= n -> x < 256 ^ n -> Z.of_nat (length (le_bytes_min x)) <= n.
Proof.
  intros Hn Hx. unfold le_bytes_min. destruct (x <=? 0); [cbn [length]; lia|].
  apply le_digits_len; [lia|exact Hx].
Qed.

Lemma be_digits_int x : 0 <= x -> be_int (be_digits x) = x.
Proof. intro Hx. unfold be_digits. rewrite be_int_rev. apply le_digits_int, Hx. Qed.

Lemma be_digits_ok x : bytes_ok (be_digits x).
Proof. apply bytes_ok_rev, le_digits_ok. Qed.

Lemma be_digits_len n x : 0 <= n -> x < 256 ^ n -> Z.of_nat (length (be_digits x)) <= n.
Proof. unfold be_digits. rewrite rev_length. apply le_digits_len. Qed.

Lemma le_fixed_len n : forall x, length (le_fixed n x) = n.
Proof. induction n as [|n IH]; intro x; cbn [le_fixed length]; [reflexivity|]. now rewrite IH. Qed.

Lemma le_fixed_ok n : forall x, bytes_ok (le_fixed n x).
Proof.
  induction n as [|n IH]; intro x; cbn [le_fixed]; constructor; [|apply IH].
  apply Z.mod_pos_bound; lia.
Qed.

Lemma le_fixed_int n : forall x, 0 <= x < 256 ^ Z.of_nat n -> le_int (le_fixed n x) = x.
Proof.
  induction n as [|n IH]; intros x Hx.
  - change (256 ^ Z.of_nat 0) with 1 in Hx. cbn [le_fixed]. rewrite le_int_nil. lia.
  - destruct (digit_step n x Hx) as [E Hd]. cbn [le_fixed]. rewrite le_int_cons, (IH _ Hd). exact E.
Qed.

Lemma u32le_len x : length (u32le x) = 4%nat.
Proof. apply le_fixed_len. Qed.
Lemma u16le_len x : length (u16le x) = 2%nat.
Proof. apply le_fixed_len. Qed.
Lemma u32le_ok x : bytes_ok (u32le x).
Proof. apply le_fixed_ok. Qed.
Lemma u16le_ok x : bytes_ok (u16le x).
Proof. apply le_fixed_ok. Qed.
Lemma u32le_int x : 0 <= x < 2 ^ 32 -> le_int (u32le x) = x.
Proof. intro H. apply le_fixed_int. exact H. Qed.
Lemma u16le_int x : 0 <= x < 2 ^ 16 -> le_int (u16le x) = x.
Proof. intro H. apply le_fixed_int. exact H. Qed.

Definition np_reader {A} (rd : reader A) : Prop := forall bs, rd bs <> Panic.

Lemma strict_np {A} (rd : reader A) : np_reader rd -> forall bs, strict rd bs <> Panic.
Proof.
  intros H bs. unfold strict. pose proof (H bs). destruct (rd bs) as [[a [|x r]]| |]; congruence.
Qed.

Lemma strict_inv {A} (rd : reader A) bs a : strict rd bs = Ok a -> rd bs = Ok (a, []).
Proof.
  unfold strict. destruct (rd bs) as [[a' [|x r]]| |]; try discriminate. intro E. now injection E as <-.
Qed.

Lemma strict_err {A} (rd : reader A) bs : rd bs = Err -> strict rd bs = Err.
Proof. unfold strict. intros ->. reflexivity. Qed.

(* Every reader of the model is a chain ['(a, r) <- ra bs ;; ... ;; Ok (c, r')], possibly with a test on the
   remaining input or a decoder of the bytes just read in between.  Up to conversion such a chain is built from
   the four combinators below, and each property of readers is shown once to be closed under them. *)
Definition rd_bind {A C} (ra : reader A) (k : A -> reader C) : reader C :=
  fun bs => bind (ra bs) (fun '(a, r) => k a r).
Definition rd_ret {C} (c : C) : reader C := fun bs => Ok (c, bs).
Definition rd_lift {C} (o : outcome C) : reader C := fun bs => bind o (fun c => Ok (c, bs)).
Definition rd_guard {C} (g : bytes -> bool) (rd : reader C) : reader C :=
  fun bs => if g bs then rd bs else Err.

Lemma np_bind {A C} {ra : reader A} {k : A -> reader C} :
  np_reader ra -> (forall a, np_reader (k a)) -> np_reader (rd_bind ra k).
Proof. intros Ha Hk bs. apply bind_np; [apply Ha|]. intros [a r]. apply Hk. Qed.

Lemma np_ret {C} {c : C} : np_reader (rd_ret c).
Proof. discriminate. Qed.

Lemma np_lift {C} {o : outcome C} : o <> Panic -> np_reader (rd_lift o).
Proof. intros Ho bs. apply bind_np; [exact Ho|discriminate]. Qed.

Lemma np_guard {C} {g} {rd : reader C} : np_reader rd -> np_reader (rd_guard g rd).
Proof. intros H bs. unfold rd_guard. destruct (g bs); [apply H|discriminate]. Qed.

Definition INV {A} (Q : bytes -> Prop) (v : A -> Prop) (rd : reader A) : Prop :=
  forall bs a r, Q bs -> rd bs = Ok (a, r) -> v a /\ Q r.

Lemma inv_bind {A C Q} {va : A -> Prop} {v : C -> Prop} {ra k} :
  INV Q va ra -> (forall a, va a -> INV Q v (k a)) -> INV Q v (rd_bind ra k).
Proof.
  intros Ha Hk bs c r HQ E. unfold rd_bind in E.
  destruct (ra bs) as [[a r1]| |] eqn:Ea; try discriminate.
  destruct (Ha _ _ _ HQ Ea) as [Hv HQ1]. exact (Hk a Hv r1 c r HQ1 E).
Qed.

Lemma inv_ret {C Q} {v : C -> Prop} {c} : v c -> INV Q v (rd_ret c).
Proof. intros Hc bs a r HQ E. injection E as <- <-. auto. Qed.

Lemma inv_lift {C Q} {v : C -> Prop} {o} : (forall c, o = Ok c -> v c) -> INV Q v (rd_lift o).
Proof. intros H bs a r HQ E. destruct o as [c| |]; try discriminate. injection E as <- <-. auto. Qed.

Lemma inv_guard {C Q} {v : C -> Prop} {g rd} : INV Q v rd -> INV Q v (rd_guard g rd).
Proof. intros H bs a r HQ E. unfold rd_guard in E. destruct (g bs); [eauto|discriminate]. Qed.

Lemma inv_weaken {A Q} {v v' : A -> Prop} {rd} : INV Q v rd -> (forall a, v a -> v' a) -> INV Q v' rd.
Proof. intros H Hv bs a r HQ E. destruct (H _ _ _ HQ E). auto. Qed.

Lemma inv_de {A Q} {v : A -> Prop} {rd} : INV Q v rd -> forall bs a, Q bs -> strict rd bs = Ok a -> v a.
Proof. intros H bs a HQ E. apply strict_inv in E. exact (proj1 (H _ _ _ HQ E)). Qed.

Definition enc {A} (rd : reader A) (a : A) (w : bytes) : Prop :=
  (forall rest, rd (w ++ rest) = Ok (a, rest)) /\ (forall b x, x <> [] -> b ++ x = w -> rd b = Err).

Lemma prefix_split (b x w t : bytes) : b ++ x = w ++ t ->
  (exists l, b = w ++ l /\ l ++ x = t) \/ (exists y, y <> [] /\ b ++ y = w).
Proof.
  intro E. apply app_eq_app in E as (l & [[E1 E2]|[E1 E2]]).
  - left. exists l. auto.
  - destruct l as [|c l].
    + left. exists []. rewrite app_nil_r in *. cbn [app] in E2. auto.
    + right. exists (c :: l). split; [discriminate|]. symmetry. exact E1.
Qed.

(* a strict prefix of [wa ++ wk] ends inside [wa], or holds all of [wa] and a strict prefix of [wk] *)
Lemma enc_bind {A C} {ra : reader A} {k : A -> reader C} {a c wa wk} :
  enc ra a wa -> enc (k a) c wk -> enc (rd_bind ra k) c (wa ++ wk).
Proof.
  intros [Ra Pa] [Rk Pk]. unfold rd_bind. split.
  - intro rest. rewrite <- app_assoc, Ra. apply Rk.
  - intros b x Hx E. apply prefix_split in E as [(l & -> & El)|(y & Hy & Ey)].
    + rewrite Ra. exact (Pk l x Hx El).
    + rewrite (Pa b y Hy Ey). reflexivity.
Qed.

Lemma enc_nil {C} {rd : reader C} {c} : (forall r, rd r = Ok (c, r)) -> enc rd c [].
Proof. intro H. split; [exact H|]. intros b x Hx E. apply app_eq_nil in E as [_ E]. congruence. Qed.

Lemma enc_ret {C} {c : C} : enc (rd_ret c) c [].
Proof. apply enc_nil. reflexivity. Qed.

Lemma enc_last {A C} {ra : reader A} {k : A -> reader C} {a c wa} :
  enc ra a wa -> (forall r, k a r = Ok (c, r)) -> enc (rd_bind ra k) c wa.
Proof. intros Ha Hk. rewrite <- (app_nil_r wa). exact (enc_bind Ha (enc_nil Hk)). Qed.

Lemma enc_guard {C} {g} {rd : reader C} {c w} :
  (forall rest, g (w ++ rest) = true) -> enc rd c w -> enc (rd_guard g rd) c w.
Proof.
  intros Hg [R Pf]. unfold rd_guard. split.
  - intro rest. rewrite Hg. apply R.
  - intros b x Hx E. destruct (g b); [exact (Pf b x Hx E)|reflexivity].
Qed.

Lemma enc_inj {A} {rd : reader A} {a a' w w'} : enc rd a w -> enc rd a' w' -> w = w' -> a = a'.
Proof. intros [R _] [R' _] <-. pose proof (R []) as E. rewrite R' in E. injection E as ->. reflexivity. Qed.

Lemma enc_first_pf {A C} {ra : reader A} (k : A -> reader C) {a w} :
  enc ra a w -> forall b x, x <> [] -> b ++ x = w -> rd_bind ra k b = Err.
Proof. intros [_ Pf] b x Hx E. apply bind_err. exact (Pf b x Hx E). Qed.

Definition RT {A} (v : A -> Prop) (wr : A -> bytes) (rd : reader A) : Prop :=
  forall a rest, v a -> rd (wr a ++ rest) = Ok (a, rest).

Definition PF {A} (v : A -> Prop) (wr : A -> bytes) (rd : reader A) : Prop :=
  forall a b x, v a -> x <> [] -> b ++ x = wr a -> rd b = Err.

Lemma enc_rt {A} {v : A -> Prop} {wr rd} : (forall a, v a -> enc rd a (wr a)) -> RT v wr rd.
Proof. intros H a rest Ha. apply (H a Ha). Qed.

Lemma enc_pf {A} {v : A -> Prop} {wr rd} : (forall a, v a -> enc rd a (wr a)) -> PF v wr rd.
Proof. intros H a b x Ha. apply (H a Ha). Qed.

Lemma rt_de {A} (v : A -> Prop) wr rd : RT v wr rd -> forall a, v a -> strict rd (wr a) = Ok a.
Proof.
  intros H a Ha. unfold strict. rewrite <- (app_nil_r (wr a)), (H a [] Ha). reflexivity.
Qed.

Lemma rt_trailing {A} (v : A -> Prop) wr rd : RT v wr rd ->
  forall a rest, v a -> rest <> [] -> strict rd (wr a ++ rest) = Err.
Proof.
  intros H a rest Ha Hr. unfold strict. rewrite (H a rest Ha). destruct rest; congruence.
Qed.

Lemma rt_step {A C} (v : A -> Prop) wr rd (f : A * bytes -> outcome C) a rest :
  RT v wr rd -> v a -> bind (rd (wr a ++ rest)) f = f (a, rest).
Proof. intros H Ha. rewrite (H a rest Ha). reflexivity. Qed.

Lemma pf_de {A} (v : A -> Prop) wr rd : PF v wr rd ->
  forall a b, v a -> (exists x, x <> [] /\ b ++ x = wr a) -> strict rd b = Err.
Proof. intros H a b Ha (x & Hx & E). apply strict_err. eapply H; eauto. Qed.

Definition delimited {A} (v : A -> Prop) (wr : A -> bytes) : Prop :=
  forall a a' r r', v a -> v a' -> wr a ++ r = wr a' ++ r' -> a = a' /\ r = r'.

Lemma delimited_inj {A} (v : A -> Prop) wr : delimited v wr ->
  forall a b, v a -> v b -> wr a = wr b -> a = b.
Proof.
  intros D a b Ha Hb E. apply (D a b [] [] Ha Hb). rewrite !app_nil_r. exact E.
Qed.

Lemma read_delimited {A} (v : A -> Prop) wr rd : RT v wr rd -> delimited v wr.
Proof.
  intros H a a' r r' Ha Ha' E. pose proof (H a r Ha) as E1.
  rewrite E, (H a' r' Ha') in E1. injection E1 as -> ->. auto.
Qed.

Lemma rt_inj {A} (v : A -> Prop) wr rd : RT v wr rd ->
  forall a b, v a -> v b -> wr a = wr b -> a = b.
Proof. intro H. exact (delimited_inj v wr (read_delimited v wr rd H)). Qed.

Lemma take_n_app a rest : take_n (length a) (a ++ rest) = Ok (a, rest).
Proof.
  unfold take_n. rewrite app_length.
  destruct (Nat.leb_spec (length a) (length a + length rest)) as [_|H]; [|lia].
  rewrite firstn_app, skipn_app, Nat.sub_diag, firstn_all, skipn_all. cbn [firstn skipn].
  rewrite app_nil_r. reflexivity.
Qed.

Lemma take_n_inv n bs a r : take_n n bs = Ok (a, r) -> bs = a ++ r /\ length a = n.
Proof.
  unfold take_n. destruct (Nat.leb_spec n (length bs)) as [H|H]; [|discriminate].
  intro E. injection E as <- <-. split; [symmetry; apply firstn_skipn|].
  apply firstn_length_le, H.
Qed.

Lemma take_n_short n bs : (length bs < n)%nat -> take_n n bs = Err.
Proof. intro H. unfold take_n. destruct (Nat.leb_spec n (length bs)); [lia|reflexivity]. Qed.

Lemma take_n_np n bs : take_n n bs <> Panic.
Proof. unfold take_n. destruct (n <=? length bs)%nat; discriminate. Qed.

Lemma enc_take a : enc (take_n (length a)) a a.
Proof.
  split; [apply take_n_app|]. intros b x Hx <-. apply take_n_short. rewrite app_length.
  destruct x; [congruence|cbn [length]; lia].
Qed.

Definition splits (Q : bytes -> Prop) : Prop := forall a b, Q (a ++ b) -> Q a /\ Q b.

Lemma bytes_ok_split : splits bytes_ok.
Proof. intros a b. apply bytes_ok_app. Qed.

Lemma any_split : splits (fun _ => True).
Proof. intros a b _. auto. Qed.

Lemma inv_take Q n : splits Q -> INV Q (fun a => Q a /\ length a = n) (take_n n).
Proof. intros HQ bs a r Hbs E. apply take_n_inv in E as [-> L]. apply HQ in Hbs. tauto. Qed.

(* a fixed-width little-endian integer: rd_u32 and rd_u16 are [rd_le 4] and [rd_le 2] *)
Definition rd_le (n : nat) : reader Z := rd_bind (take_n n) (fun b => rd_ret (le_int b)).

Lemma rd_le_np n : np_reader (rd_le n).
Proof. exact (np_bind (take_n_np n) (fun b => np_ret)). Qed.

Lemma rd_le_inv n bs x r : rd_le n bs = Ok (x, r) ->
  exists a, bs = a ++ r /\ length a = n /\ x = le_int a.
Proof.
  unfold rd_le, rd_bind. destruct (take_n n bs) as [[a r']| |] eqn:E; try discriminate.
  intro H. injection H as <- <-. apply take_n_inv in E as [-> L]. eauto.
Qed.

Lemma rd_le_short n bs : (length bs < n)%nat -> rd_le n bs = Err.
Proof. intro H. unfold rd_le, rd_bind. rewrite take_n_short by exact H. reflexivity. Qed.

Lemma enc_le n x : 0 <= x < 256 ^ Z.of_nat n -> enc (rd_le n) x (le_fixed n x).
Proof.
  intro H.
  pose proof (enc_last (k := fun b => rd_ret (le_int b)) (enc_take (le_fixed n x)) (fun _ => eq_refl)) as E.
  rewrite le_fixed_len, le_fixed_int in E by exact H. exact E.
Qed.

Lemma inv_le Q n : splits Q -> INV Q (fun _ => True) (rd_le n).
Proof. intro HQ. exact (inv_bind (inv_take Q n HQ) (fun _ _ => inv_ret I)). Qed.

Lemma val_le n : INV bytes_ok (fun x => 0 <= x < 256 ^ Z.of_nat n) (rd_le n).
Proof.
  apply (inv_bind (inv_take bytes_ok n bytes_ok_split)). intros b [Hb <-].
  apply inv_ret, le_int_bound, Hb.
Qed.

Lemma enc_u32 n : 0 <= n < 2 ^ 32 -> enc rd_u32 n (u32le n).
Proof. exact (enc_le 4 n). Qed.
Lemma enc_u16 n : 0 <= n < 2 ^ 16 -> enc rd_u16 n (u16le n).
Proof. exact (enc_le 2 n). Qed.
Lemma val_u32 : INV bytes_ok (fun n => 0 <= n < 2 ^ 32) rd_u32.
Proof. exact (val_le 4). Qed.

Lemma enc_count (n : nat) : Z.of_nat n < 2 ^ 32 -> enc rd_u32 (Z.of_nat n) (u32le (Z.of_nat n)).
Proof. intro H. apply enc_u32. lia. Qed.

Lemma rd_u32_app n rest : 0 <= n < 2 ^ 32 -> rd_u32 (u32le n ++ rest) = Ok (n, rest).
Proof. intro H. exact (proj1 (enc_u32 n H) rest). Qed.
Lemma rd_u16_app n rest : 0 <= n < 2 ^ 16 -> rd_u16 (u16le n ++ rest) = Ok (n, rest).
Proof. intro H. exact (proj1 (enc_u16 n H) rest). Qed.
Lemma rd_u32_inv bs n r : rd_u32 bs = Ok (n, r) ->
  exists a, bs = a ++ r /\ length a = 4%nat /\ n = le_int a.
Proof. exact (rd_le_inv 4 bs n r). Qed.
Lemma rd_u16_inv bs n r : rd_u16 bs = Ok (n, r) ->
  exists a, bs = a ++ r /\ length a = 2%nat /\ n = le_int a.
Proof. exact (rd_le_inv 2 bs n r). Qed.
Lemma rd_u32_short bs : (length bs < 4)%nat -> rd_u32 bs = Err.
Proof. exact (rd_le_short 4 bs). Qed.
Lemma rd_u16_short bs : (length bs < 2)%nat -> rd_u16 bs = Err.
Proof. exact (rd_le_short 2 bs). Qed.
Lemma rd_u32_np bs : rd_u32 bs <> Panic.
Proof. exact (rd_le_np 4 bs). Qed.
Lemma rd_u16_np bs : rd_u16 bs <> Panic.
Proof. exact (rd_le_np 2 bs). Qed.

(* rd_vec_u8 is [rd_u32], a test that the announced length is backed, then [take_n] *)
Lemma rd_vec_u8_np bs : rd_vec_u8 bs <> Panic.
Proof. exact (np_bind rd_u32_np (fun n => np_guard (take_n_np _)) bs). Qed.

Lemma enc_vec_u8 b : Z.of_nat (length b) < 2 ^ 32 -> enc rd_vec_u8 b (wr_vec_u8 b).
Proof.
  intro H. apply (enc_bind (enc_count _ H)), enc_guard.
  - intro rest. rewrite app_length. apply Z.leb_le. lia.
  - rewrite Nat2Z.id. apply enc_take.
Qed.

Lemma rd_vec_u8_app b rest : Z.of_nat (length b) < 2 ^ 32 ->
  rd_vec_u8 (wr_vec_u8 b ++ rest) = Ok (b, rest).
Proof. intro H. exact (proj1 (enc_vec_u8 b H) rest). Qed.

Lemma rd_vec_u8_inv bs b r : rd_vec_u8 bs = Ok (b, r) ->
  exists a, bs = a ++ b ++ r /\ length a = 4%nat /\ Z.to_nat (le_int a) = length b.
Proof.
  unfold rd_vec_u8. destruct (rd_u32 bs) as [[n r']| |] eqn:E; try discriminate.
  intro H. apply rd_u32_inv in E as (a & -> & L & ->).
  destruct (_ <=? _); [|discriminate]. apply take_n_inv in H as [-> L'].
  exists a. auto.
Qed.

Lemma inv_vec_u8 Q : splits Q -> INV Q Q rd_vec_u8.
Proof.
  intro HQ. exact (inv_bind (inv_le Q 4 HQ) (fun n _ => inv_guard (inv_weaken (inv_take Q _ HQ) (fun a => @proj1 _ _)))).
Qed.

(* under [bytes_ok] the length prefix is a u32 *)
Lemma val_vec_u8 : INV bytes_ok (fun b => bytes_ok b /\ Z.of_nat (length b) < 2 ^ 32) rd_vec_u8.
Proof.
  apply (inv_bind val_u32). intros n Hn. apply inv_guard.
  apply (inv_weaken (inv_take bytes_ok (Z.to_nat n) bytes_ok_split)).
  intros b [Hb L]. split; [exact Hb|lia].
Qed.

Lemma wr_vec_u8_len b : length (wr_vec_u8 b) = (4 + length b)%nat.
Proof. unfold wr_vec_u8. rewrite app_length, u32le_len. reflexivity. Qed.

Lemma wr_vec_u8_ok b : bytes_ok b -> bytes_ok (wr_vec_u8 b).
Proof. intro H. unfold wr_vec_u8. apply bytes_ok_app. split; [apply u32le_ok|exact H]. Qed.

(* [rd_n rd (S k)] is [rd], then [rd_n rd k], then a cons; [rd_vec] is built like [rd_vec_u8] *)
Lemma rd_n_np {A} (rd : reader A) : np_reader rd -> forall k, np_reader (rd_n rd k).
Proof.
  intros H k. induction k as [|k IH]; [exact np_ret|].
  exact (np_bind H (fun a => np_bind IH (fun l => np_ret))).
Qed.

Lemma rd_vec_np {A} minsz (rd : reader A) : np_reader rd -> np_reader (rd_vec minsz rd).
Proof. intro H. exact (np_bind rd_u32_np (fun n => np_guard (rd_n_np rd H _))). Qed.

Lemma inv_n {A} Q (v : A -> Prop) rd : INV Q v rd ->
  forall k, INV Q (fun l => Forall v l /\ length l = k) (rd_n rd k).
Proof.
  intros H k. induction k as [|k IH]; [exact (inv_ret (conj (Forall_nil v) eq_refl))|].
  apply (inv_bind H). intros a Ha. apply (inv_bind IH). intros l [Hl <-].
  apply inv_ret. split; [constructor; assumption|reflexivity].
Qed.

Lemma rd_n_length {A} (rd : reader A) k bs l r : rd_n rd k bs = Ok (l, r) -> length l = k.
Proof.
  intro E. exact (proj2 (proj1 (inv_n (fun _ => True) (fun _ => True) rd (fun _ _ _ _ _ => conj I I) k bs l r I E))).
Qed.

Lemma inv_vec {A} Q (vn : Z -> Prop) (v : A -> Prop) minsz rd : INV Q vn rd_u32 -> INV Q v rd ->
  INV Q (fun l => Forall v l /\ exists n, vn n /\ length l = Z.to_nat n) (rd_vec minsz rd).
Proof.
  intros Hn H. apply (inv_bind Hn). intros n Vn. apply inv_guard.
  apply (inv_weaken (inv_n Q v rd H (Z.to_nat n))). intros l [Hl L]. eauto.
Qed.

Lemma flat_map_min_len {A} (w : A -> bytes) k l :
  (forall a, In a l -> (k <= length (w a))%nat) -> (length l * k <= length (flat_map w l))%nat.
Proof.
  induction l as [|x l IH]; intro H; cbn [length flat_map]; [lia|].
  rewrite app_length. pose proof (H x (or_introl eq_refl)).
  assert (length l * k <= length (flat_map w l))%nat by (apply IH; intros a Ha; apply H; right; exact Ha).
  lia.
Qed.

Lemma flat_map_const_len {A} (w : A -> bytes) k l :
  (forall a, length (w a) = k) -> length (flat_map w l) = (length l * k)%nat.
Proof.
  intro H. induction l as [|x l IH]; cbn [length flat_map]; [reflexivity|].
  rewrite app_length, H, IH. lia.
Qed.

Lemma enc_n {A} (rd : reader A) (w : A -> bytes) l :
  (forall a, In a l -> enc rd a (w a)) -> enc (rd_n rd (length l)) l (flat_map w l).
Proof.
  induction l as [|x l IH]; intro H; [exact enc_ret|].
  apply (enc_bind (H x (or_introl eq_refl))).
  apply (enc_last (IH (fun a Ha => H a (or_intror Ha)))). reflexivity.
Qed.

Lemma enc_vec {A} minsz (rd : reader A) (w : A -> bytes) l :
  Z.of_nat (length l) < 2 ^ 32 ->
  (forall a, In a l -> (minsz <= length (w a))%nat) ->
  (forall a, In a l -> enc rd a (w a)) ->
  enc (rd_vec minsz rd) l (wr_vec w l).
Proof.
  intros Hl Hmin H. apply (enc_bind (enc_count _ Hl)), enc_guard.
  - intro rest. rewrite app_length. pose proof (flat_map_min_len w minsz l Hmin). apply Z.leb_le. nia.
  - rewrite Nat2Z.id. apply enc_n, H.
Qed.

Lemma wr_vec_map {A C} (f : A -> C) (w : C -> bytes) l :
  wr_vec (fun a => w (f a)) l = wr_vec w (map f l).
Proof.
  unfold wr_vec. rewrite map_length. f_equal.
  induction l as [|a l IH]; cbn [flat_map map]; [|rewrite IH]; reflexivity.
Qed.

(* Vec<Vec<u8>>: the framing of a vector of serialised items, whatever the items are *)
Lemma enc_items {A} (wr : A -> bytes) l :
  Z.of_nat (length l) < 2 ^ 32 -> Forall (fun a => Z.of_nat (length (wr a)) < 2 ^ 32) l ->
  enc (rd_vec 4 rd_vec_u8) (map wr l) (wr_vec (fun a => wr_vec_u8 (wr a)) l).
Proof.
  intros Hl Hf. rewrite Forall_forall in Hf. rewrite (wr_vec_map wr wr_vec_u8). apply enc_vec.
  - rewrite map_length. exact Hl.
  - intros b _. rewrite wr_vec_u8_len. lia.
  - intros b Hb. apply in_map_iff in Hb as (a & <- & Ha). apply enc_vec_u8, Hf, Ha.
Qed.

(* StrandVector* of every backend (rd_svec of Model/Wire.v, rd_Rsvec of Model/RBackend.v): the items of a
   Vec<Vec<u8>>, each decoded strictly by [rd] *)
Definition rd_items {A} (rd : reader A) : reader (list A) :=
  rd_bind (rd_vec 4 rd_vec_u8) (fun items => rd_lift (mapM (strict rd) items)).

Lemma np_rd_items {A} (rd : reader A) : np_reader rd -> np_reader (rd_items rd).
Proof.
  intro H. exact (np_bind (rd_vec_np 4 rd_vec_u8 rd_vec_u8_np)
                    (fun items => np_lift (mapM_np _ items (strict_np rd H)))).
Qed.

Lemma inv_rd_items {A} Q (v : A -> Prop) rd : splits Q -> INV Q v rd -> INV Q (Forall v) (rd_items rd).
Proof.
  intros HQ H. apply (inv_bind (inv_vec Q _ Q 4 rd_vec_u8 (inv_le Q 4 HQ) (inv_vec_u8 Q HQ))).
  intros items [Hi _]. apply inv_lift. intros l E.
  exact (mapM_inv (strict rd) Q v (inv_de H) items l Hi E).
Qed.

Lemma enc_rd_items {A} (v : A -> Prop) wr rd l : RT v wr rd ->
  Z.of_nat (length l) < 2 ^ 32 -> Forall (fun a => v a /\ Z.of_nat (length (wr a)) < 2 ^ 32) l ->
  enc (rd_items rd) l (wr_vec (fun a => wr_vec_u8 (wr a)) l).
Proof.
  intros H Hl Hf. refine (enc_last (enc_items wr l Hl (Forall_impl _ (fun a => @proj2 _ _) Hf)) (fun r => _)).
  unfold rd_lift. rewrite (mapM_ok (strict rd) wr); [reflexivity|].
  rewrite Forall_forall in Hf. intros b Hb. apply (rt_de _ _ _ H), Hf, Hb.
Qed.

(* a truncated vector is refused by the framing, before an item is decoded: nothing is asked of [rd] *)
Lemma pf_rd_items {A} (wr : A -> bytes) (rd : reader A) l :
  Z.of_nat (length l) < 2 ^ 32 -> Forall (fun a => Z.of_nat (length (wr a)) < 2 ^ 32) l ->
  forall b x, x <> [] -> b ++ x = wr_vec (fun a => wr_vec_u8 (wr a)) l -> rd_items rd b = Err.
Proof. intros Hl Hf. exact (enc_first_pf _ (enc_items wr l Hl Hf)). Qed.

Print Assumptions le_digits_int.
Print Assumptions le_digits_ok.
Print Assumptions le_digits_len_nat.
Print Assumptions le_digits_len.
Print Assumptions le_bytes_min_int.
Print Assumptions le_bytes_min_ok.
Print Assumptions le_bytes_min_len.
Print Assumptions be_digits_int.
Print Assumptions be_digits_ok.
Print Assumptions be_digits_len.
Print Assumptions le_int_bound.
Print Assumptions be_int_bound.
Print Assumptions le_fixed_int.
Print Assumptions le_fixed_len.
Print Assumptions le_fixed_ok.
Print Assumptions rd_u32_app.
Print Assumptions rd_u16_app.
Print Assumptions take_n_app.
Print Assumptions rd_vec_u8_app.
Print Assumptions take_n_np.
Print Assumptions rd_u32_np.
Print Assumptions rd_u16_np.
Print Assumptions rd_vec_u8_np.
Print Assumptions rd_n_np.
Print Assumptions rd_vec_np.
Print Assumptions mapM_np.
Print Assumptions strict_np.
Print Assumptions rt_de.
Print Assumptions rt_trailing.
Print Assumptions rt_inj.
Print Assumptions rt_step.
Print Assumptions pf_de.
