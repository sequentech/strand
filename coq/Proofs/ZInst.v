(* Proofs/ZInst.v — safe-prime parameter records, kernel-computed certificates for the small sets, the
   facts about the regenerated 2048-bit constants, and plaintext encoding (C14). *)
From Coq Require Import ZArith Znumtheory List Lia Bool.
From Strand Require Import Base.ZUtil Base.Fermat Base.Primes Base.FastArith
  Generated.Constants Model.Outcome Model.ZBackend Model.Exec Model.Params2048 Proofs.ZLaws.
Import ListNotations.
Open Scope Z_scope.

Record SafePrime (P : Params) : Prop := {
  sp_good : GoodParams P;
  sp_p : prime (p_p P);
  sp_q : prime (p_q P);
  sp_rel : p_p P = 2 * p_q P + 1;
  sp_odd : Z.odd (p_q P) = true;
  sp_g1 : p_g P <> 1;
  sp_cof : p_cof P = 2
}.

Definition safe_prime_check (P : Params) : bool :=
  prime_check_sqrt (p_p P) && prime_check_sqrt (p_q P) && (p_p P =? 2 * p_q P + 1) && Z.odd (p_q P)
  && (1 <? p_q P) && memberb P (p_g P) && negb (p_g P =? 1) && (p_cof P =? 2).

Lemma safe_prime_check_sound P : safe_prime_check P = true -> SafePrime P.
Proof.
  unfold safe_prime_check. rewrite !andb_true_iff.
  intros [[[[[[[H1 H2] H3] H4] H5] H6] H7] H8].
  apply prime_check_sqrt_sound in H1. apply prime_check_sqrt_sound in H2.
  apply Z.eqb_eq in H3. apply Z.ltb_lt in H5. apply Z.eqb_eq in H8.
  assert (1 < p_p P) by lia.
  constructor; try assumption.
  - constructor; [assumption|assumption|]. apply memberb_spec; assumption.
  - apply negb_true_iff in H7. apply Z.eqb_neq in H7. exact H7.
Qed.

Definition small_moduli : list Z := [23; 47; 59; 83; 107; 167; 179; 227; 263; 2039; 65267].

Theorem small_sets_safe : forall p, In p small_moduli -> SafePrime (mkP p).
Proof.
  assert (forallb (fun p => safe_prime_check (mkP p)) small_moduli = true) as H by (vm_compute; reflexivity).
  intros p Hp. apply safe_prime_check_sound. rewrite forallb_forall in H. apply H. exact Hp.
Qed.

(* the shipped 2048-bit constants, regenerated from src/backend.rs on every run *)
Theorem p2048_safe_shape : p2048 = 2 * q2048 + 1.
Proof. vm_compute. reflexivity. Qed.

(* the Verificatum modulus lies between 2^2048 and 2^2049 *)
Theorem p2048_bits : Z.log2 p2048 = 2048 /\ Z.log2 q2048 = 2047.
Proof. vm_compute. split; reflexivity. Qed.

Theorem g2048_range : 1 < g2048 < p2048.
Proof. vm_compute. split; reflexivity. Qed.

Theorem q2048_odd : Z.odd q2048 = true.
Proof. vm_compute. reflexivity. Qed.

Theorem cofactor_two : cofactor2048 = 2.
Proof. vm_compute. reflexivity. Qed.

(* g^q = 1 (mod p): evaluated over BigN (Base/FastArith.v), transported by sq_powm_ok *)
Theorem g2048_order : powm g2048 q2048 p2048 = 1.
Proof. rewrite <- sq_powm_ok. vm_compute. reflexivity. Qed.

Theorem good_P2048 : GoodParams P2048.
Proof.
  constructor.
  - vm_compute. reflexivity.
  - vm_compute. reflexivity.
  - split; [cbn [P2048 p_g p_p]; pose proof g2048_range; lia|].
    cbn [P2048 p_g p_p p_q]. rewrite <- powm_spec by (vm_compute; discriminate). exact g2048_order.
Qed.

(* primality of q2048 cannot be certified here; that of p2048 follows from it (Proofs/PrimeCerts.v) *)
Theorem safe_P2048 : prime p2048 -> prime q2048 -> SafePrime P2048.
Proof.
  intros Hp Hq. constructor; try assumption.
  - exact good_P2048.
  - exact p2048_safe_shape.
  - exact q2048_odd.
  - cbn. pose proof g2048_range. lia.
  - exact cofactor_two.
Qed.

Section Encode.
  Variable K : Kernel.
  Variable P : Params.
  Hypothesis S : SafePrime P.
  Notation p := (p_p P).
  Notation q := (p_q P).

  Let Hq : 1 < q := gp_q P (sp_good P S).
  Let Hrel : p = 2 * q + 1 := sp_rel P S.

  Lemma legendre_cases a : 0 < a < p ->
    (legendre K P a = 1 /\ member P a) \/ (legendre K P a = -1 /\ member P (p - a)).
  Proof.
    intros Ha. unfold legendre, member. rewrite k_powm_ok, powm_spec by lia.
    destruct (exactly_one_member p q a (sp_p P S) Hrel (sp_odd P S) ltac:(lia) ltac:(lia) Ha)
      as [[E _]|[E E']]; rewrite E.
    - left. split; [reflexivity|lia].
    - right. rewrite (proj2 (Z.eqb_neq (p - 1) 0)), (proj2 (Z.eqb_neq (p - 1) 1)) by lia.
      split; [reflexivity|lia].
  Qed.

  Lemma decode_low e : 1 <= e <= q -> decode P e = Ok (e - 1).
  Proof.
    intros He. unfold decode. rewrite Z.gtb_ltb.
    rewrite (proj2 (Z.ltb_ge q e)), (proj2 (Z.ltb_ge e 1)) by lia. reflexivity.
  Qed.

  Lemma decode_high e : q < e < p -> decode P e = Ok (p - e - 1).
  Proof.
    intros He. unfold decode. rewrite Z.gtb_ltb.
    rewrite (proj2 (Z.ltb_lt q e)), (proj2 (Z.ltb_ge p e)), (proj2 (Z.ltb_ge (p - e) 1)) by lia. reflexivity.
  Qed.

  (* m + 1 or its negative p - (m + 1), whichever is the member; decode undoes either *)
  Theorem encode_decode m : 0 <= m < q - 1 ->
    exists e, encode K P m = Ok e /\ member P e /\ decode P e = Ok m.
  Proof.
    intros Hm. unfold encode. rewrite Z.geb_leb, (proj2 (Z.leb_gt (q - 1) m)) by lia.
    cbv zeta. rewrite k_mod_ok.
    destruct (legendre_cases (m + 1)) as [[-> Hmem]|[-> Hmem]]; [lia| |];
      cbn [Z.eqb Pos.eqb]; rewrite Z.mod_small by lia.
    - exists (m + 1). split; [reflexivity|]. split; [exact Hmem|].
      rewrite decode_low by lia. f_equal. lia.
    - exists (p - (m + 1)). split; [reflexivity|]. split; [exact Hmem|].
      rewrite decode_high by lia. f_equal. lia.
  Qed.

  Theorem encode_out_of_range m : q - 1 <= m -> encode K P m = Err.
  Proof. intro H. unfold encode. rewrite Z.geb_leb, (proj2 (Z.leb_le (q - 1) m)) by lia. reflexivity. Qed.

  Theorem encode_injective m1 m2 e : 0 <= m1 < q - 1 -> 0 <= m2 < q - 1 ->
    encode K P m1 = Ok e -> encode K P m2 = Ok e -> m1 = m2.
  Proof.
    intros H1 H2 E1 E2.
    destruct (encode_decode m1 H1) as (e1 & A1 & _ & D1). destruct (encode_decode m2 H2) as (e2 & A2 & _ & D2).
    rewrite E1 in A1. rewrite E2 in A2. injection A1 as <-. injection A2 as <-. congruence.
  Qed.

  Theorem member_iff_quadratic_residue a :
    member P a <-> (1 <= a < p /\ exists e, 0 < e < p /\ (e ^ 2) mod p = a).
  Proof.
    unfold member.
    pose proof (member_iff_qr p q a (sp_p P S) Hrel (sp_odd P S) ltac:(lia)) as H. tauto.
  Qed.

End Encode.
