(* Proofs/ListAlg.v — list algebra for the shuffle proofs. First, without any backend: reading a list
   through an index list ([pick], the functional form of `mapM (nthZ l) perm`), its interaction with
   map / combine / Permutation, integer sums, dot products and products and their permutation
   invariance, small facts on firstn/skipn/last. Then, over a lawful backend: products of lists of
   members ([prodp]), lists of powers ([powl]), and the backend's exponent folds against the integer
   sums and products modulo q. *)
From Coq Require Import ZArith List Lia Permutation FinFun.
From Strand Require Import Base.Poly Model.Outcome Model.Backend Model.Shuffler Proofs.Laws.
Import ListNotations.
Open Scope Z_scope.

Lemma Forall_firstn_skipn {A} (P : A -> Prop) n l :
  Forall P l -> Forall P (firstn n l) /\ Forall P (skipn n l).
Proof. intros H. apply Forall_app. rewrite firstn_skipn. exact H. Qed.

Lemma Forall_firstn' {A} (P : A -> Prop) n l : Forall P l -> Forall P (firstn n l).
Proof. intros H. apply (Forall_firstn_skipn P n l H). Qed.

Lemma Forall_skipn' {A} (P : A -> Prop) n l : Forall P l -> Forall P (skipn n l).
Proof. intros H. apply (Forall_firstn_skipn P n l H). Qed.

Lemma Forall_nth_nonneg l k : Forall (fun r => 0 <= r) l -> 0 <= nth k l 0.
Proof.
  revert k. induction l as [|a l IH]; intros k H; destruct k; cbn [nth]; try lia.
  - inversion H; assumption.
  - inversion H; subst. apply IH; assumption.
Qed.

Lemma Forall_combine {A C} (P : A -> Prop) (Q : C -> Prop) l1 l2 :
  Forall P l1 -> Forall Q l2 -> Forall (fun p => P (fst p) /\ Q (snd p)) (combine l1 l2).
Proof.
  revert l2. induction l1 as [|a l1 IH]; intros l2 H1 H2; cbn [combine]; [constructor|].
  destruct l2 as [|b l2]; [constructor|]. inversion H1; inversion H2; subst.
  constructor; [cbn; auto|]. apply IH; assumption.
Qed.

Lemma Forall_map_combine {A C D} (P : A -> Prop) (Q : C -> Prop) (R : D -> Prop) (f : A * C -> D) l1 l2 :
  (forall a c, P a -> Q c -> R (f (a, c))) -> Forall P l1 -> Forall Q l2 -> Forall R (map f (combine l1 l2)).
Proof.
  intros Hf H1 H2. rewrite Forall_map. eapply Forall_impl; [|exact (Forall_combine _ _ _ _ H1 H2)].
  intros [a c] [Ha Hc]. apply Hf; assumption.
Qed.

Lemma map_combine_ext {X Y} (f : X -> Y) l1 l2 :
  length l1 = length l2 -> (forall x y, In (x, y) (combine l1 l2) -> f x = y) -> map f l1 = l2.
Proof.
  revert l2. induction l1 as [|a l1 IH]; intros l2 Hl H; destruct l2 as [|b l2]; try discriminate; [reflexivity|].
  cbn [map]. f_equal.
  - apply H. left. reflexivity.
  - apply IH; [cbn in Hl; lia|]. intros x y Hin. apply H. right. exact Hin.
Qed.

Lemma map_fst_combine {X Y} (l1 : list X) (l2 : list Y) :
  length l1 = length l2 -> map fst (combine l1 l2) = l1.
Proof.
  revert l2. induction l1 as [|a l1 IH]; intros l2 Hl; destruct l2; try discriminate; [reflexivity|].
  cbn. f_equal. apply IH. cbn in Hl. lia.
Qed.

Lemma map_snd_combine {X Y} (l1 : list X) (l2 : list Y) :
  length l1 = length l2 -> map snd (combine l1 l2) = l2.
Proof.
  revert l2. induction l1 as [|a l1 IH]; intros l2 Hl; destruct l2; try discriminate; [reflexivity|].
  cbn. f_equal. apply IH. cbn in Hl. lia.
Qed.

Lemma combine_map_l {X Y Z} (f : X -> Y) l (l' : list Z) :
  combine (map f l) l' = map (fun p => (f (fst p), snd p)) (combine l l').
Proof.
  revert l'. induction l as [|a l IH]; intros [|b l']; [reflexivity..|]. cbn [map combine fst snd]. now rewrite IH.
Qed.

Lemma last_cons {A} (a : A) l d : last (a :: l) d = last l a.
Proof.
  revert a d. induction l as [|b l IH]; intros a d; [reflexivity|].
  change (last (a :: b :: l) d) with (last (b :: l) d). rewrite (IH b d), (IH b a). reflexivity.
Qed.

Lemma last_nonempty {A} (l : list A) d d' : (1 <= length l)%nat -> last l d = last l d'.
Proof. destruct l as [|a l]; [cbn; lia|]. intros _. now rewrite !last_cons. Qed.

Lemma nth_error_combine {A C} (l1 : list A) (l2 : list C) k a b :
  nth_error l1 k = Some a -> nth_error l2 k = Some b -> nth_error (combine l1 l2) k = Some (a, b).
Proof.
  revert l2 k. induction l1 as [|x l1 IH]; intros l2 k H1 H2; destruct k as [|k]; destruct l2 as [|y l2];
    cbn [nth_error combine] in *; try discriminate.
  - injection H1 as ->. injection H2 as ->. reflexivity.
  - apply IH; assumption.
Qed.

Lemma forallb_nth_false {A} (f : A -> bool) l k a :
  nth_error l k = Some a -> f a = false -> forallb f l = false.
Proof.
  intros Hn Hf. destruct (forallb f l) eqn:E; [|reflexivity].
  rewrite forallb_forall in E. rewrite <- Hf. symmetry. apply E. eapply nth_error_In. exact Hn.
Qed.

Lemma perm_nonempty {A} (l l' : list A) : l <> [] -> Permutation l l' -> l' <> [].
Proof. intros Hne HP E. subst l'. apply Permutation_sym, Permutation_nil in HP. contradiction. Qed.

Lemma map_nonempty {X Y} (f : X -> Y) l : l <> [] -> map f l <> [].
Proof. destruct l; [congruence|discriminate]. Qed.

Lemma nth0_firstn (t : nat) (l : list Z) : (1 <= t)%nat -> nth 0 (firstn t l) 0 = nth 0 l 0.
Proof. intro H. destruct t as [|t']; [lia|]. destruct l; reflexivity. Qed.

Lemma map_mod_small q l : Forall (fun x => 0 <= x < q) l -> map (fun x => x mod q) l = l.
Proof.
  intro H. rewrite <- (map_id l) at 2. apply map_ext_in.
  intros a Ha. rewrite Forall_forall in H. apply Z.mod_small. apply H; exact Ha.
Qed.

Definition iota (n : nat) : list Z := map Z.of_nat (seq 0 n).

Definition pick {A} (d : A) (l : list A) (perm : list Z) : list A :=
  map (fun i => nth (Z.to_nat i) l d) perm.

Definition in_range (n : nat) (i : Z) : Prop := 0 <= i < Z.of_nat n.

Lemma iota_range n : Forall (in_range n) (iota n).
Proof.
  unfold iota. rewrite Forall_map. rewrite Forall_forall. intros k Hk.
  apply in_seq in Hk. unfold in_range. lia.
Qed.

Lemma iota_NoDup n : NoDup (iota n).
Proof. unfold iota. apply Injective_map_NoDup; [exact Nat2Z.inj | apply seq_NoDup]. Qed.

Lemma iota_length n : length (iota n) = n.
Proof. unfold iota. now rewrite map_length, seq_length. Qed.

Lemma perm_range perm n : Permutation perm (iota n) -> Forall (in_range n) perm.
Proof. intros H. apply (Permutation_Forall (Permutation_sym H)), iota_range. Qed.

Lemma perm_NoDup perm n : Permutation perm (iota n) -> NoDup perm.
Proof. intros H. apply (Permutation_NoDup (Permutation_sym H)). apply iota_NoDup. Qed.

Lemma perm_length perm n : Permutation perm (iota n) -> length perm = n.
Proof. intros H. rewrite (Permutation_length H). apply iota_length. Qed.

Lemma pick_length {A} (d : A) l perm : length (pick d l perm) = length perm.
Proof. apply map_length. Qed.

Lemma nthZ_ok {A} (d : A) l i : in_range (length l) i -> nthZ l i = Ok (nth (Z.to_nat i) l d).
Proof.
  intros [H0 H1]. unfold nthZ. replace (i <? 0) with false by (symmetry; apply Z.ltb_ge; lia).
  rewrite (nth_error_nth' l d) by lia. reflexivity.
Qed.

Lemma mapM_ext_in {A C} (f g : A -> outcome C) l :
  (forall x, In x l -> f x = g x) -> mapM f l = mapM g l.
Proof.
  induction l as [|a l IH]; intros H; [reflexivity|].
  cbn [mapM]. rewrite (H a) by (left; reflexivity).
  rewrite IH by (intros x Hx; apply H; right; exact Hx). reflexivity.
Qed.

Lemma mapM_total {A C} (f : A -> outcome C) (g : A -> C) l :
  (forall x, In x l -> f x = Ok (g x)) -> mapM f l = Ok (map g l).
Proof.
  induction l as [|a l IH]; intros H; [reflexivity|].
  cbn [mapM map]. rewrite (H a) by (left; reflexivity).
  rewrite IH by (intros x Hx; apply H; right; exact Hx). reflexivity.
Qed.

Lemma mapM_nthZ {A} (d : A) l perm :
  Forall (in_range (length l)) perm -> mapM (nthZ l) perm = Ok (pick d l perm).
Proof. intros H. apply mapM_total. intros i Hi. rewrite Forall_forall in H. apply nthZ_ok, H, Hi. Qed.

Lemma pick_map {A C} (f : A -> C) d l perm : pick (f d) (map f l) perm = map f (pick d l perm).
Proof.
  unfold pick. rewrite map_map. apply map_ext. intros i. apply map_nth.
Qed.

Lemma combine_pick {A C} (d1 : A) (d2 : C) l1 l2 perm :
  combine (pick d1 l1 perm) (pick d2 l2 perm) =
  map (fun i => (nth (Z.to_nat i) l1 d1, nth (Z.to_nat i) l2 d2)) perm.
Proof. induction perm as [|i perm IH]; [reflexivity|]. cbn [pick map combine]. f_equal. exact IH. Qed.

Lemma pick_combine {A C} (d1 : A) (d2 : C) l1 l2 perm : length l1 = length l2 ->
  pick (d1, d2) (combine l1 l2) perm = combine (pick d1 l1 perm) (pick d2 l2 perm).
Proof. intros Hl. rewrite combine_pick. apply map_ext. intros i. apply combine_nth. exact Hl. Qed.

Lemma nth_seq_id {A} (d : A) l : map (fun k => nth k l d) (seq 0 (length l)) = l.
Proof.
  induction l as [|a l IH]; [reflexivity|].
  cbn [length seq map nth]. f_equal. rewrite <- seq_shift, map_map. exact IH.
Qed.

Lemma pick_iota {A} (d : A) l : pick d l (iota (length l)) = l.
Proof.
  unfold pick, iota. rewrite map_map.
  rewrite (map_ext _ (fun k => nth k l d)); [apply nth_seq_id|].
  intros k. now rewrite Nat2Z.id.
Qed.

Lemma pick_perm {A} (d : A) l perm : Permutation perm (iota (length l)) -> Permutation (pick d l perm) l.
Proof.
  intros H. rewrite <- (pick_iota d l) at 2. unfold pick. apply Permutation_map. exact H.
Qed.

Lemma pick_pair_perm {A C} (d1 : A) (d2 : C) l1 l2 perm :
  length l1 = length l2 -> Permutation perm (iota (length l1)) ->
  Permutation (combine (pick d1 l1 perm) (pick d2 l2 perm)) (combine l1 l2).
Proof.
  intros Hl H. rewrite <- pick_combine by exact Hl. apply pick_perm.
  rewrite combine_length, <- Hl, Nat.min_id. exact H.
Qed.

Lemma pick_Forall {A} (P : A -> Prop) d l perm :
  Forall (in_range (length l)) perm -> Forall P l -> Forall P (pick d l perm).
Proof.
  intros Hr HP. unfold pick. rewrite Forall_map. rewrite Forall_forall in *. intros i Hi.
  apply HP. apply nth_In. specialize (Hr i Hi). unfold in_range in Hr. lia.
Qed.

Definition zdotp (l : list (Z * Z)) : Z := fold_right (fun p acc => fst p * snd p + acc) 0 l.

Lemma zsum_nonneg l : Forall (fun r => 0 <= r) l -> 0 <= zsum l.
Proof. induction 1; [rewrite zsum_nil|rewrite zsum_cons]; lia. Qed.

Lemma zprod_nonneg l : Forall (fun r => 0 <= r) l -> 0 <= zprod l.
Proof. induction 1; [rewrite zprod_nil|rewrite zprod_cons]; nia. Qed.

Lemma zdotp_nonneg l : Forall (fun p => 0 <= fst p /\ 0 <= snd p) l -> 0 <= zdotp l.
Proof. induction 1; cbn [zdotp fold_right]; [lia|]. fold (zdotp l). nia. Qed.

Lemma zsum_perm l1 l2 : Permutation l1 l2 -> zsum l1 = zsum l2.
Proof. induction 1; rewrite ?zsum_cons; lia. Qed.

Lemma zprod_perm l1 l2 : Permutation l1 l2 -> zprod l1 = zprod l2.
Proof. induction 1; rewrite ?zprod_cons; try congruence. ring. Qed.

Lemma zdotp_perm l1 l2 : Permutation l1 l2 -> zdotp l1 = zdotp l2.
Proof. unfold zdotp. induction 1; cbn [fold_right] in *; lia. Qed.

Lemma zdotp_pick d1 d2 l1 l2 perm : length l1 = length l2 -> Permutation perm (iota (length l1)) ->
  zdotp (combine (pick d1 l1 perm) (pick d2 l2 perm)) = zdotp (combine l1 l2).
Proof. intros Hl H. apply zdotp_perm. apply pick_pair_perm; assumption. Qed.

Lemma bind_rw {X Y} (m : outcome X) (k : X -> outcome Y) a r : m = Ok a -> k a = r -> bind m k = r.
Proof. intros -> <-. reflexivity. Qed.

Section Members.
  Variable B : Backend.
  Variable mem : E B -> Prop.
  Hypothesis L : Laws B mem.
  Notation q := (b_q B).
  Notation mulp := (b_mulp B).
  Notation pow := (b_pow B).
  Notation one := (b_one B).
  Notation prodp := (prodp B).
  Notation xsum := (xsum B).
  Notation nonneg := (fun r : Z => 0 <= r).

  Lemma fold_mulp_mem l : Forall mem l -> forall acc, mem acc -> mem (fold_left mulp l acc).
  Proof.
    induction 1 as [|a l Ha Hl IH]; intros acc Hacc; cbn [fold_left]; [exact Hacc|].
    apply IH. memt.
  Qed.

  Lemma prodp_mem l : Forall mem l -> mem (prodp l).
  Proof. intros H. apply fold_mulp_mem; [exact H|memt]. Qed.

  Lemma fold_mulp_acc l : Forall mem l -> forall acc, mem acc ->
    fold_left mulp l acc = mulp acc (prodp l).
  Proof.
    unfold Shuffler.prodp.
    induction 1 as [|a l Ha Hl IH]; intros acc Hacc; cbn [fold_left].
    - symmetry. apply (mulp_one_r B mem L); exact Hacc.
    - rewrite IH by memt. rewrite (IH (mulp one a)) by memt.
      rewrite (mulp_one_l B mem L) by exact Ha.
      apply (mulp_assoc B mem L); try assumption. apply fold_mulp_mem; [assumption|memt].
  Qed.

  Lemma prodp_nil : prodp [] = one.
  Proof. reflexivity. Qed.

  Lemma prodp_cons a l : mem a -> Forall mem l -> prodp (a :: l) = mulp a (prodp l).
  Proof.
    intros Ha Hl. unfold Shuffler.prodp at 1. cbn [fold_left].
    rewrite (mulp_one_l B mem L) by exact Ha. apply fold_mulp_acc; assumption.
  Qed.

  Lemma prodp_perm l1 l2 : Permutation l1 l2 -> Forall mem l1 -> prodp l1 = prodp l2.
  Proof.
    induction 1 as [|x l l' HP IH|x y l|l l' l'' HP1 IH1 HP2 IH2]; intros HF.
    - reflexivity.
    - inversion HF; subst. pose proof (Permutation_Forall HP H2) as HF'.
      rewrite !prodp_cons by assumption. now rewrite IH.
    - inversion HF as [|? ? Hy HF1]; subst. inversion HF1 as [|? ? Hx HF2]; subst.
      rewrite !prodp_cons by (try assumption; constructor; assumption).
      apply (mulp_swap B mem L); try assumption. apply prodp_mem; assumption.
    - rewrite IH1 by assumption. apply IH2. apply (Permutation_Forall HP1 HF).
  Qed.

  Lemma pow_map_mem b xs : mem b -> Forall nonneg xs -> Forall mem (map (pow b) xs).
  Proof. intros Hb HF. rewrite Forall_map. eapply Forall_impl; [|exact HF]. cbn. intros a Ha. memt. Qed.

  Lemma prodp_pow b xs : mem b -> Forall nonneg xs -> prodp (map (pow b) xs) = pow b (zsum xs).
  Proof.
    intros Hb HF. induction HF as [|a l Ha Hl IH].
    - cbn [map]. rewrite zsum_nil, prodp_nil. symmetry. apply (pow_0 B mem L); exact Hb.
    - cbn [map]. rewrite prodp_cons by (memt; apply pow_map_mem; assumption).
      rewrite IH, zsum_cons.
      pose proof (zsum_nonneg l Hl). symmetry. apply (pow_add B mem L); assumption.
  Qed.

  Definition powl (bs : list (E B)) (xs : list Z) : list (E B) :=
    map (fun p => pow (fst p) (snd p)) (combine bs xs).

  Lemma powl_map {X} (f : X -> E B) l xs :
    map (fun p => pow (f (fst p)) (snd p)) (combine l xs) = powl (map f l) xs.
  Proof. unfold powl. rewrite combine_map_l, map_map. reflexivity. Qed.

  Lemma powl_mem bs : Forall mem bs -> forall xs, Forall nonneg xs -> Forall mem (powl bs xs).
  Proof. intros Hb xs Hx. apply (Forall_map_combine mem nonneg); [|assumption..]. intros b x Hb0 Hx0. memt. Qed.

  Lemma prodp_powl_perm bs xs bs' xs' :
    Permutation (combine bs' xs') (combine bs xs) -> Forall mem bs' -> Forall nonneg xs' ->
    prodp (powl bs' xs') = prodp (powl bs xs).
  Proof.
    intros HP Hb Hx. apply prodp_perm; [|apply powl_mem; assumption].
    unfold powl. apply Permutation_map. exact HP.
  Qed.

  Lemma xsum_acc l : Forall nonneg l -> forall acc acc', rep B acc acc' ->
    rep B (fold_left (b_xadd B) l acc) (acc' + zsum l).
  Proof.
    induction 1 as [|a l Ha Hl IH]; intros acc acc' Hacc; cbn [fold_left].
    - apply (rep_eqm B Hacc). rewrite zsum_nil, Z.add_0_r. reflexivity.
    - apply (rep_eqm B (IH _ _ (rep_xadd B mem L Hacc (rep_refl B a Ha)))).
      rewrite zsum_cons, Z.add_assoc. reflexivity.
  Qed.

  Lemma xsum_ok l : Forall nonneg l -> rep B (xsum l) (zsum l).
  Proof. intros H. exact (xsum_acc l H 0 0 (rep_refl B 0 (Z.le_refl 0))). Qed.

  Definition xmulf (p : Z * Z) : Z := b_xmul B (fst p) (snd p).
  Notation nonneg2 := (fun p : Z * Z => 0 <= fst p /\ 0 <= snd p).

  Lemma xdot_ok l : Forall nonneg2 l -> rep B (xsum (map xmulf l)) (zdotp l).
  Proof.
    intros H.
    assert (HF : Forall nonneg (map xmulf l) /\ eqm q (zsum (map xmulf l)) (zdotp l)).
    { induction H as [|p l [Hp1 Hp2] Hl [IH1 IH2]]; [split; [constructor|reflexivity]|].
      destruct (rep_xmul B mem L (rep_refl B _ Hp1) (rep_refl B _ Hp2)) as [H0 E]. fold (xmulf p) in H0, E.
      cbn [map]. split; [constructor; assumption|].
      rewrite zsum_cons. change (zdotp (p :: l)) with (fst p * snd p + zdotp l).
      rewrite E, IH2. reflexivity. }
    destruct HF as [HF1 HF2]. exact (rep_eqm B (xsum_ok _ HF1) HF2).
  Qed.

  Definition umulf (acc x : Z) : Z := b_xmodq B (b_xmul B acc x).

  Lemma uprod_acc l : Forall nonneg l -> forall acc acc', rep B acc acc' ->
    rep B (fold_left umulf l acc) (acc' * zprod l).
  Proof.
    induction 1 as [|a l Ha Hl IH]; intros acc acc' Hacc; cbn [fold_left].
    - apply (rep_eqm B Hacc). rewrite zprod_nil, Z.mul_1_r. reflexivity.
    - apply (rep_eqm B (IH _ _ (rep_umul B mem L Hacc (rep_refl B a Ha)))).
      rewrite zprod_cons, Z.mul_assoc. reflexivity.
  Qed.
End Members.
