(* Proofs/SigmaP.v — Schnorr and Chaum-Pedersen over any lawful backend and for ANY hash function
   (hash_to_exp is just a field of the backend): completeness, decision characterisation, rejection of
   altered responses, special soundness.
   Both protocols are one verification equation b^s = com * pub^c (Chaum-Pedersen: two of them under one
   challenge), and everything that needs q prime comes from dividing in the exponent. *)
From Coq Require Import ZArith Znumtheory Lia Bool.
From Strand Require Import Base.Fermat Model.Backend Model.Zkp Proofs.Laws.
Open Scope Z_scope.

(* exponents are never negative: x - y modulo q is represented by x + (q - y mod q) *)
Definition subq (q x y : Z) : Z := x + (q - y mod q).

Lemma subq_nonneg q x y : 1 < q -> 0 <= x -> 0 <= subq q x y.
Proof. intros Hq Hx. unfold subq. pose proof (Z.mod_pos_bound y q ltac:(lia)). lia. Qed.

Lemma subq_add q x y : 1 < q -> (y + subq q x y) mod q = x mod q.
Proof.
  intros Hq. unfold subq. pose proof (Z.div_mod y q ltac:(lia)).
  replace (y + (x + (q - y mod q))) with (x + (1 + y / q) * q) by lia. apply Z_mod_plus_full.
Qed.

Lemma subq_zero q x y : 1 < q -> subq q x y mod q = 0 -> x mod q = y mod q.
Proof.
  intros Hq H. rewrite <- (subq_add q x y Hq). rewrite Zplus_mod, H, Z.add_0_r. now rewrite Z.mod_mod by lia.
Qed.

Section Sigma.
  Variable B : Backend.
  Variable mem : E B -> Prop.
  Hypothesis L : Laws B mem.
  Notation q := (b_q B).
  Notation mulp := (b_mulp B).
  Notation pow := (b_pow B).
  Notation one := (b_one B).

  Definition resp (r c x : Z) : Z := b_xmodq B (b_xadd B r (b_xmul B c x)).

  Lemma resp_ok r c x : 0 <= r -> 0 <= c -> 0 <= x ->
    0 <= resp r c x < q /\ resp r c x mod q = (r + c * x) mod q.
  Proof.
    intros Hr Hc Hx.
    pose proof (rep_xadd B mem L (rep_refl B r Hr) (rep_xmul B mem L (rep_refl B c Hc) (rep_refl B x Hx))) as Hs.
    split; [apply (xmodq_range B mem L), Hs|apply (rep_xmodq B mem L Hs)].
  Qed.

  Lemma sigma_eq base r c x : mem base -> 0 <= r -> 0 <= c -> 0 <= x ->
    pow base (resp r c x) = mulp (pow base r) (pow (pow base x) c).
  Proof.
    intros Hb Hr Hc Hx. destruct (resp_ok r c x Hr Hc Hx) as [[H0 _] E].
    rewrite (pow_congr B mem L base (resp r c x) (r + c * x)) by (auto; nia).
    rewrite (pow_add B mem L) by (auto; nia).
    rewrite (pow_mul B mem L) by auto. now rewrite (Z.mul_comm x c).
  Qed.

  Lemma base_mem g : (forall b, g = Some b -> mem b) -> mem (base_or_gen B g).
  Proof. intros H. destruct g as [b|]; cbn; [apply H; reflexivity | apply (mem_gen B mem L)]. Qed.

  Lemma chal_nonneg bs : 0 <= b_hash_to_exp B bs.
  Proof. apply (hash_range B mem L). Qed.

  (* the verifiers' test of one equation b^s = com * pub^c, as they compute it *)
  Definition eq_check (b pub com : E B) (c s : Z) : bool :=
    b_eqb B (pow b s) (b_modp B (b_mul B com (pow pub c))).

  Lemma eq_check_spec b pub com c s : mem b -> mem pub -> mem com -> 0 <= c -> 0 <= s ->
    (eq_check b pub com c s = true <-> pow b s = mulp com (pow pub c)).
  Proof. intros. apply (eqb_spec B mem L); memt. Qed.

  Lemma eq_check_honest b x r c : mem b -> 0 <= x -> 0 <= r -> 0 <= c ->
    eq_check b (pow b x) (pow b r) c (resp r c x) = true.
  Proof.
    intros Hb Hx Hr Hc. destruct (resp_ok r c x Hr Hc Hx) as [[H0 _] _].
    apply eq_check_spec; [memt..|]. apply sigma_eq; assumption.
  Qed.

  Theorem schnorr_complete_private secret g context r :
    (forall b, g = Some b -> mem b) -> 0 <= secret -> 0 <= r ->
    schnorr_verify_private B (pow (base_or_gen B g) secret) g
      (schnorr_prove_private B secret (pow (base_or_gen B g) secret) g context r) context = true.
  Proof.
    intros Hg Hs Hr.
    unfold schnorr_verify_private, schnorr_prove_private. cbn [s_com s_chal s_resp].
    rewrite Z.eqb_refl. cbn [andb].
    apply eq_check_honest; [apply base_mem; exact Hg|assumption|assumption|apply chal_nonneg].
  Qed.

  Theorem schnorr_verify_spec pub g pf context :
    (forall b, g = Some b -> mem b) -> mem pub -> mem (s_com B pf) -> 0 <= s_chal B pf -> 0 <= s_resp B pf ->
    (schnorr_verify_private B pub g pf context = true <->
     s_chal B pf = schnorr_challenge B (base_or_gen B g) pub (s_com B pf) context /\
     pow (base_or_gen B g) (s_resp B pf) = mulp (s_com B pf) (pow pub (s_chal B pf))).
  Proof.
    intros Hg Hpub Hcom Hc Hs. pose proof (base_mem g Hg) as Hb.
    unfold schnorr_verify_private. rewrite andb_true_iff, Z.eqb_eq.
    fold (eq_check (base_or_gen B g) pub (s_com B pf) (s_chal B pf) (s_resp B pf)).
    rewrite eq_check_spec by assumption.
    split; intros [H1 H2]; split; auto.
  Qed.

  Theorem cp_complete_private secret g1 g2 context r :
    (forall b, g1 = Some b -> mem b) -> mem g2 -> 0 <= secret -> 0 <= r ->
    cp_verify_private B (pow (base_or_gen B g1) secret) (pow g2 secret) g1 g2
      (cp_prove_private B secret (pow (base_or_gen B g1) secret) (pow g2 secret) g1 g2 context r) context = true.
  Proof.
    intros Hg1 Hg2 Hs Hr.
    unfold cp_verify_private, cp_prove_private. cbn [c_com1 c_com2 c_chal c_resp].
    rewrite Z.eqb_refl. cbn [andb].
    apply andb_true_iff. split; apply eq_check_honest; try assumption; try apply chal_nonneg.
    apply base_mem; exact Hg1.
  Qed.

  Theorem cp_verify_spec pub1 pub2 g1 g2 pf context :
    (forall b, g1 = Some b -> mem b) -> mem g2 -> mem pub1 -> mem pub2 ->
    mem (c_com1 B pf) -> mem (c_com2 B pf) -> 0 <= c_chal B pf -> 0 <= c_resp B pf ->
    (cp_verify_private B pub1 pub2 g1 g2 pf context = true <->
     c_chal B pf = cp_challenge B (base_or_gen B g1) g2 pub1 pub2 (c_com1 B pf) (c_com2 B pf) context /\
     pow (base_or_gen B g1) (c_resp B pf) = mulp (c_com1 B pf) (pow pub1 (c_chal B pf)) /\
     pow g2 (c_resp B pf) = mulp (c_com2 B pf) (pow pub2 (c_chal B pf))).
  Proof.
    intros Hg1 Hg2 Hp1 Hp2 Hk1 Hk2 Hc Hs. pose proof (base_mem g1 Hg1) as Hb.
    unfold cp_verify_private. rewrite !andb_true_iff, Z.eqb_eq.
    fold (eq_check (base_or_gen B g1) pub1 (c_com1 B pf) (c_chal B pf) (c_resp B pf))
         (eq_check g2 pub2 (c_com2 B pf) (c_chal B pf) (c_resp B pf)).
    rewrite !eq_check_spec by assumption.
    split; [intros [[H1 H2] H3] | intros (H1 & H2 & H3)]; auto.
  Qed.

  Lemma pow_subq a x y : mem a -> 0 <= x -> 0 <= y -> mulp (pow a y) (pow a (subq q x y)) = pow a x.
  Proof.
    intros Ha Hx Hy. pose proof (q_gt1 B mem L) as Hq. pose proof (subq_nonneg q x y Hq Hx).
    rewrite <- (pow_add B mem L) by assumption.
    apply (pow_congr B mem L); [assumption|lia|assumption|apply subq_add; exact Hq].
  Qed.

  Lemma pow_root a b t d e : mem a -> mem b -> 0 <= t -> 0 <= d -> 0 <= e -> (d * e) mod q = 1 ->
    pow a t = pow b d -> b = pow a ((t * e) mod q).
  Proof.
    intros Ha Hb Ht Hd He Hde E. pose proof (q_gt1 B mem L) as Hq.
    rewrite (pow_mod B mem L) by memt.
    rewrite <- (pow_mul B mem L) by assumption. rewrite E. rewrite (pow_mul B mem L) by assumption.
    rewrite (pow_congr B mem L b (d * e) 1); [symmetry; apply (pow_1 B mem L); exact Hb|memt..|].
    unfold eqm. rewrite Hde. symmetry. apply Z.mod_small. lia.
  Qed.

  (* two accepting transcripts with one commitment: divide one verification equation by the other *)
  Lemma transcripts_div base pub com c1 s1 c2 s2 :
    mem base -> mem pub -> mem com -> 0 <= c1 -> 0 <= c2 -> 0 <= s1 -> 0 <= s2 ->
    pow base s1 = mulp com (pow pub c1) ->
    pow base s2 = mulp com (pow pub c2) ->
    pow base (subq q s1 s2) = pow pub (subq q c1 c2).
  Proof.
    intros Hb Hp Hk Hc1 Hc2 Hs1 Hs2 E1 E2. pose proof (q_gt1 B mem L) as Hq.
    pose proof (subq_nonneg q s1 s2 Hq Hs1). pose proof (subq_nonneg q c1 c2 Hq Hc1).
    apply (mulp_cancel_l B mem L (pow base s2)); [memt..|].
    rewrite pow_subq by assumption. rewrite E1, E2.
    rewrite (mulp_assoc B mem L) by memt. now rewrite pow_subq by assumption.
  Qed.

  Hypothesis q_prime : prime q.

  Lemma subq_inverse x y : x mod q <> y mod q -> exists e, 0 <= e /\ (subq q x y * e) mod q = 1.
  Proof.
    intros Hd. pose proof (q_gt1 B mem L) as Hq. destruct (inv_mod_prime q (subq q x y) q_prime) as (e & He & Hde).
    - intro Hdiv. apply Hd, subq_zero; [exact Hq|]. apply Z.mod_divide; [lia|exact Hdiv].
    - exists e. split; [lia|exact Hde].
  Qed.

  Lemma pow_inj a x y : mem a -> a <> one -> 0 <= x -> 0 <= y -> pow a x = pow a y -> x mod q = y mod q.
  Proof.
    intros Ha Hne Hx Hy E. pose proof (q_gt1 B mem L) as Hq.
    destruct (Z.eq_dec (x mod q) (y mod q)) as [|Hd]; [assumption|exfalso].
    destruct (subq_inverse x y Hd) as (e & He & Hde).
    pose proof (subq_nonneg q x y Hq Hx) as H0.
    assert (Hpd : pow a (subq q x y) = one).
    { apply (mulp_cancel_l B mem L (pow a y)); [memt..|].
      rewrite pow_subq by assumption. rewrite E. symmetry. apply (mulp_one_r B mem L). memt. }
    apply Hne. rewrite <- (pow_one B mem L ((0 * e) mod q)) by (apply Z.mod_pos_bound; lia).
    apply (pow_root one a 0 (subq q x y) e); try assumption; [memt|lia|].
    rewrite Hpd. apply (pow_0 B mem L). memt.
  Qed.

  Corollary pow_inj_range a x y : mem a -> a <> one -> 0 <= x < q -> 0 <= y < q -> pow a x = pow a y -> x = y.
  Proof.
    intros Ha Hne Hx Hy E. apply pow_inj in E; [|assumption|assumption|lia|lia].
    now rewrite !Z.mod_small in E by lia.
  Qed.

  Theorem schnorr_response_binding pub g pf s' context :
    (forall b, g = Some b -> mem b) -> base_or_gen B g <> one ->
    mem pub -> mem (s_com B pf) -> 0 <= s_chal B pf -> 0 <= s_resp B pf < q -> 0 <= s' < q ->
    schnorr_verify_private B pub g pf context = true ->
    s' <> s_resp B pf ->
    schnorr_verify_private B pub g {| s_com := s_com B pf; s_chal := s_chal B pf; s_resp := s' |} context = false.
  Proof.
    intros Hg Hne Hpub Hcom Hc Hs Hs' Hacc Hd.
    set (pf' := {| s_com := s_com B pf; s_chal := s_chal B pf; s_resp := s' |}).
    destruct (schnorr_verify_private B pub g pf' context) eqn:E; [exfalso|reflexivity].
    apply schnorr_verify_spec in Hacc; try assumption; try lia.
    apply schnorr_verify_spec in E; subst pf'; cbn [s_com s_chal s_resp]; try assumption; try lia.
    cbn [s_com s_chal s_resp] in E. destruct Hacc as [_ H1]. destruct E as [_ H2].
    apply Hd, (pow_inj_range (base_or_gen B g)); [apply base_mem; assumption|assumption..|congruence].
  Qed.

  (* the witness (s1 - s2) / (c1 - c2) depends on the challenges and responses only: every equation that
     holds under both transcripts has it, and Chaum-Pedersen extracts the same one from both of its equations *)
  Lemma ss_witness c1 s1 c2 s2 : 0 <= c1 -> 0 <= c2 -> 0 <= s1 -> 0 <= s2 -> c1 mod q <> c2 mod q ->
    exists x, 0 <= x < q /\ forall base pub com, mem base -> mem pub -> mem com ->
      pow base s1 = mulp com (pow pub c1) -> pow base s2 = mulp com (pow pub c2) -> pub = pow base x.
  Proof.
    intros Hc1 Hc2 Hs1 Hs2 Hd. pose proof (q_gt1 B mem L) as Hq.
    destruct (subq_inverse c1 c2 Hd) as (e & He & Hde).
    pose proof (subq_nonneg q s1 s2 Hq Hs1). pose proof (subq_nonneg q c1 c2 Hq Hc1).
    exists ((subq q s1 s2 * e) mod q). split; [apply Z.mod_pos_bound; lia|].
    intros base pub com Hb Hp Hk E1 E2.
    apply (pow_root base pub _ (subq q c1 c2)); try assumption.
    apply (transcripts_div base pub com); assumption.
  Qed.

  Theorem schnorr_special_soundness base pub com c1 s1 c2 s2 :
    mem base -> mem pub -> mem com -> 0 <= c1 -> 0 <= c2 -> 0 <= s1 -> 0 <= s2 ->
    c1 mod q <> c2 mod q ->
    pow base s1 = mulp com (pow pub c1) ->
    pow base s2 = mulp com (pow pub c2) ->
    exists x, 0 <= x < q /\ pub = pow base x.
  Proof.
    intros Hb Hp Hk Hc1 Hc2 Hs1 Hs2 Hd E1 E2.
    destruct (ss_witness c1 s1 c2 s2 Hc1 Hc2 Hs1 Hs2 Hd) as (x & Hx & W).
    exists x. split; [exact Hx|]. apply (W base pub com); assumption.
  Qed.
End Sigma.
