(* Proofs/SqrtRatio.v — completeness of SQRT_RATIO_M1 (RFC 9496 4.2, the square-root computation shared by ristretto255 and
   Ed25519 point decoding): if u = x^2 v with v <> 0 then the model's [sqrt_ratio_m1 u v] reports "square" and returns r with
   v r^2 = u. With [sqrt_ratio_ok] (Proofs/RistrettoDecode.v) this is the full specification of the "square" branch.
   Argument: r = u v^3 (u v^7)^((p-5)/8), so v r^2 = u (u v^7)^((p-1)/4); u v^7 = (x v^4)^2 is a square, hence its
   (p-1)/4-th power is (x v^4)^((p-1)/2) = +-1 (Euler). Large exponents are never evaluated: they are opaque constants
   under [zpow] of Base/ZpField.v. *)
From Coq Require Import ZArith Lia Bool Field.
From Strand Require Import Base.ZUtil Base.ZpField Model.Ristretto
  Proofs.PrimeCerts Proofs.RistrettoGroup Proofs.RistrettoDecode.
Open Scope Z_scope.

Definition e58 : Z := Eval vm_compute in (fp - 5) / 8.
Definition e14 : Z := Eval vm_compute in (fp - 1) / 4.
Lemma e58_eq : (fp - 5) / 8 = e58.  Proof. reflexivity. Qed.
Lemma e14_eq : 2 * e58 + 1 = e14.  Proof. reflexivity. Qed.
Lemma e12_eq : 2 * e14 = half_fp.  Proof. reflexivity. Qed.
Lemma e58_nonneg : 0 <= e58.  Proof. discriminate. Qed.
Lemma e14_nonneg : 0 <= e14.  Proof. discriminate. Qed.

Lemma F_fpow K a e : F (fpow K a e) = zpow fp (F a) e.
Proof.
  unfold fpow. rewrite k_powm_ok, powm_spec by discriminate. unfold F. rewrite (of_Z_mod fp fp_prime).
  apply (of_Z_pow fp fp_prime).
Qed.

Lemma euler_pm1_F (a : Fp) : a <> f0 -> zpow fp a half_fp = f1 \/ zpow fp a half_fp = fo f1.
Proof. exact (zpow_euler fp fp_prime a half_fp eq_refl). Qed.
Global Opaque e58 e14 half_fp.

Theorem sqrt_ratio_complete K u v (X : Fp) : 0 <= u < fp -> F v <> f0 -> F u = fm (fm X X) (F v) ->
  fst (sqrt_ratio_m1 K u v) = true.
Proof.
  intros Hu Hv Hx. unfold sqrt_ratio_m1.
  set (v3 := fmul K (fsq K v) v). set (v7 := fmul K (fsq K v3) v). set (w := fmul K u v7).
  set (r := fmul K (fmul K u v3) (fpow K w ((fp - 5) / 8))).
  set (check := fmul K v (fsq K r)).
  cbn [fst].
  set (U := F u) in *. set (V := F v) in *.
  assert (E3 : F v3 = fm (fm V V) V) by (unfold v3, fsq; now rewrite !F_fmul).
  assert (E7 : F v7 = fm (fm (F v3) (F v3)) V) by (unfold v7, fsq; now rewrite !F_fmul).
  assert (Ew : F w = fm U (F v7)) by (unfold w; now rewrite F_fmul).
  (* w = u v^7 is the square of z = x v^4 *)
  set (Z := fm X (fm (fm V V) (fm V V))).
  assert (Ewz : F w = fm Z Z) by (rewrite Ew, E7, E3, Hx; unfold Z; ring).
  assert (Er : F r = fm (fm U (F v3)) (zpow fp (F w) e58)).
  { unfold r. rewrite !F_fmul, F_fpow, e58_eq. reflexivity. }
  assert (Ec : F check = fm U (zpow fp (F w) e14)).
  { unfold check, fsq. rewrite !F_fmul, Er. rewrite <- e14_eq.
    rewrite (zpow_add fp (F w) (2 * e58) 1) by (try discriminate; pose proof e58_nonneg; lia).
    replace (2 * e58) with (e58 + e58) by ring. rewrite (zpow_add fp (F w) e58 e58) by apply e58_nonneg.
    rewrite (zpow_1 fp fp_prime). change (zmul fp) with fm. set (We := zpow fp (F w) e58). rewrite Ew, E7, E3. fold V. ring. }
  assert (Ep : zpow fp (F w) e14 = zpow fp Z half_fp).
  { rewrite Ewz. change (fm Z Z) with (zmul fp Z Z).
    rewrite <- (zpow_2 fp), (zpow_mul fp fp_prime), e12_eq; [reflexivity | discriminate | apply e14_nonneg]. }
  rewrite Ep in Ec.
  assert (Cc : canon check) by (unfold check; apply fmod_canon).
  destruct (F_dec X f0) as [X0|Xn].
  - (* x = 0: u = 0, check = 0 = u *)
    assert (U0 : U = f0) by (rewrite Hx, X0; ring).
    assert (E : check = u).
    { apply canon_eq; [exact Cc | now apply canon_iff |]. fold U. rewrite Ec, U0. ring. }
    apply orb_true_iff. left. now apply Z.eqb_eq.
  - assert (Zn : Z <> f0) by (apply E_mul_nz; [exact Xn | apply E_mul_nz; apply E_mul_nz; exact Hv]).
    destruct (euler_pm1_F Z Zn) as [P1|P1]; rewrite P1 in Ec; apply orb_true_iff.
    + left. apply Z.eqb_eq. apply canon_eq; [exact Cc | now apply canon_iff |]. fold U. rewrite Ec. ring.
    + right. apply Z.eqb_eq. apply canon_eq; [exact Cc | apply fmod_canon |]. rewrite F_fneg. fold U. rewrite Ec. ring.
Qed.

Lemma invsqrt_complete K w (r : Fp) : fm (fm r r) (F w) = f1 ->
  fst (sqrt_ratio_m1 K 1 w) = true /\
  fm (F w) (fm (F (snd (sqrt_ratio_m1 K 1 w))) (F (snd (sqrt_ratio_m1 K 1 w)))) = f1.
Proof.
  intro Q.
  assert (Wn : F w <> f0) by (intro Z; apply (F_1_neq_0 Fth); rewrite <- Q, Z; ring).
  assert (W : fst (sqrt_ratio_m1 K 1 w) = true).
  { apply (sqrt_ratio_complete K 1 w r); [split; [lia|reflexivity] | exact Wn | rewrite F_1; symmetry; exact Q]. }
  split; [exact W|]. rewrite (sqrt_ratio_ok K 1 w W). apply F_1.
Qed.
