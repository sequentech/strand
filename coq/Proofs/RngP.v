(* Proofs/RngP.v — the samplers of Model/Rng.v as functions of the byte stream:
   (1) domain: gen_biguint / gen_below / rnd_exp / rnd_plaintext return values in range, the stream only
       moves forward, rnd() never panics and returns group members for safe-prime parameters;
   (2) the 4*len bytes one attempt of gen_biguint reads are determined by (value, discarded bits), and
       every value below 2^bits (resp. below the bound) is reachable;
   (3) Fisher-Yates: the map from index draws to permutations is injective, and shuffle_from is that
       map applied to the indices gen_index returns. *)
From Coq Require Import ZArith List Lia Permutation.
From Strand Require Import Model.Outcome Model.Codec Model.ZBackend Model.Rng
  Proofs.CodecP Proofs.ListAlg Proofs.ZLaws Proofs.ZInst.
From Strand Require Proofs.ShuffleRel.
Import ListNotations.
Open Scope Z_scope.

Lemma len_pos bits : 0 < bits -> 0 < (bits + 31) / 32.
Proof. intro Hb. Z.div_mod_to_equations. lia. Qed.

Lemma len_rem0 bits : 0 < bits -> bits mod 32 = 0 -> 32 * ((bits + 31) / 32) = bits.
Proof. intros Hb Hr. Z.div_mod_to_equations. lia. Qed.

Lemma pow_bytes n : 0 <= n -> 256 ^ Z.of_nat (Z.to_nat (4 * n)) = 2 ^ (32 * n).
Proof.
  intro Hn. rewrite Z2Nat.id by lia. rewrite <- pow256 by lia. f_equal. lia.
Qed.

(* When bits is not a multiple of 32, the words read are V = lo + M * (d + S * t): lo the words below the top one
   (M = 2^(32(len-1))), d the S = 2^(32-rem) values of the top word's discarded low bits, t its rem kept bits.
   gen_biguint keeps lo + M * t. *)
Section Layout.
  Variables M S : Z.
  Hypothesis HM : 0 < M.
  Hypothesis HS : 0 < S.

  Definition keep_bits (V : Z) : Z := V mod M + V / M / S * M.
  Definition pack_bits (v : Z) : Z := v mod M + M * (v / M * S).

  Lemma low_high lo h : 0 <= lo < M -> (lo + h * M) mod M = lo /\ (lo + h * M) / M = h.
  Proof. intro H. rewrite Z.mod_add, Z.div_add, Z.mod_small, Z.div_small by lia. lia. Qed.

  Lemma keep_bits_split V : 0 <= (V / M) mod S < S /\ V = keep_bits V mod M + M * ((V / M) mod S + S * (keep_bits V / M)).
  Proof.
    destruct (low_high (V mod M) (V / M / S) (Z.mod_pos_bound V M HM)) as [E1 E2].
    unfold keep_bits. rewrite E1, E2. split; [apply Z.mod_pos_bound, HS|].
    pose proof (Z.div_mod (V / M) S). pose proof (Z.div_mod V M). lia.
  Qed.

  Lemma keep_pack_bits v : keep_bits (pack_bits v) = v.
  Proof.
    destruct (low_high (v mod M) (v / M * S) (Z.mod_pos_bound v M HM)) as [E1 E2].
    unfold keep_bits, pack_bits. rewrite (Z.mul_comm M), E1, E2, Z.div_mul by lia. pose proof (Z.div_mod v M). lia.
  Qed.

  Lemma keep_bits_bound R V : 0 <= V < M * S * R -> 0 <= keep_bits V < M * R.
  Proof.
    intro HV. unfold keep_bits. pose proof (Z.mod_pos_bound V M HM).
    assert (0 <= V / M / S < R).
    { split; [apply Z.div_pos; [apply Z.div_pos|]; lia|].
      apply Z.div_lt_upper_bound; [lia|]. apply Z.div_lt_upper_bound; lia. }
    nia.
  Qed.

  Lemma pack_bits_bound R v : 0 <= v < M * R -> 0 <= pack_bits v < M * S * R.
  Proof.
    intro Hv. unfold pack_bits. pose proof (Z.mod_pos_bound v M HM).
    assert (0 <= v / M < R) by (split; [apply Z.div_pos; lia|apply Z.div_lt_upper_bound; lia]).
    nia.
  Qed.
End Layout.

Lemma layout_pows bits : 0 < bits -> bits mod 32 <> 0 ->
  0 < 2 ^ (32 * ((bits + 31) / 32 - 1)) /\ 0 < 2 ^ (32 - bits mod 32) /\
  2 ^ (32 * ((bits + 31) / 32)) = 2 ^ (32 * ((bits + 31) / 32 - 1)) * 2 ^ (32 - bits mod 32) * 2 ^ (bits mod 32) /\
  2 ^ bits = 2 ^ (32 * ((bits + 31) / 32 - 1)) * 2 ^ (bits mod 32).
Proof.
  intros Hb E.
  assert (0 < bits mod 32 < 32 /\ 0 <= 32 * ((bits + 31) / 32 - 1)) as [Hr HL] by (Z.div_mod_to_equations; lia).
  rewrite <- !Z.pow_add_r by lia.
  repeat split; try (apply Z.pow_pos_nonneg; lia); f_equal; Z.div_mod_to_equations; lia.
Qed.

(* the value one attempt makes of the integer read from its words *)
Definition attempt_value (bits V : Z) : Z :=
  if bits mod 32 =? 0 then V
  else keep_bits (2 ^ (32 * ((bits + 31) / 32 - 1))) (2 ^ (32 - bits mod 32)) V.

Lemma attempt_value_bound bits V : 0 < bits -> 0 <= V < 2 ^ (32 * ((bits + 31) / 32)) ->
  0 <= attempt_value bits V < 2 ^ bits.
Proof.
  intros Hb HV. unfold attempt_value. destruct (Z.eqb_spec (bits mod 32) 0) as [E|E].
  - rewrite (len_rem0 bits Hb E) in HV. exact HV.
  - destruct (layout_pows bits Hb E) as (HM & HS & E32 & ->). rewrite E32 in HV. apply keep_bits_bound; assumption.
Qed.

(* the words that yield [v]: [v] itself, or [v] with its top word shifted left by 32-rem *)
Lemma attempt_value_onto bits v : 0 < bits -> 0 <= v < 2 ^ bits ->
  exists V, 0 <= V < 2 ^ (32 * ((bits + 31) / 32)) /\ attempt_value bits V = v.
Proof.
  intros Hb Hv. unfold attempt_value. destruct (Z.eqb_spec (bits mod 32) 0) as [E|E].
  - exists v. rewrite (len_rem0 bits Hb E). auto.
  - destruct (layout_pows bits Hb E) as (HM & HS & -> & Eb). rewrite Eb in Hv.
    exists (pack_bits (2 ^ (32 * ((bits + 31) / 32 - 1))) (2 ^ (32 - bits mod 32)) v).
    split; [apply pack_bits_bound; assumption|apply keep_pack_bits; assumption].
Qed.

Lemma gen_biguint_rd bits s :
  gen_biguint bits s = rd_bind (rd_le (Z.to_nat (4 * ((bits + 31) / 32)))) (fun V => rd_ret (attempt_value bits V)) s.
Proof.
  unfold gen_biguint, rd_le, rd_bind, rd_ret, attempt_value, keep_bits. cbv zeta.
  destruct (take_n (Z.to_nat (4 * ((bits + 31) / 32))) s) as [[b r]| |]; cbn [bind]; try reflexivity.
  rewrite Z.shiftr_div_pow2 by (pose proof (Z.mod_pos_bound bits 32); lia).
  destruct (bits mod 32 =? 0); reflexivity.
Qed.

Lemma gen_biguint_inv bits s v rest : gen_biguint bits s = Ok (v, rest) ->
  exists b, s = b ++ rest /\ length b = Z.to_nat (4 * ((bits + 31) / 32)) /\ v = attempt_value bits (le_int b).
Proof.
  rewrite gen_biguint_rd. intro H. apply bind_ok in H as ([V r] & HV & H). injection H as <- <-.
  apply rd_le_inv in HV as (b & -> & Lb & ->). eauto.
Qed.

Lemma gen_biguint_np bits s : gen_biguint bits s <> Panic.
Proof. rewrite gen_biguint_rd. exact (np_bind (rd_le_np _) (fun _ => np_ret) s). Qed.

Lemma gen_biguint_ok bits : 0 < bits -> INV bytes_ok (fun v => 0 <= v < 2 ^ bits) (gen_biguint bits).
Proof.
  intros Hb s v rest Hs H. rewrite gen_biguint_rd in H. revert s v rest Hs H.
  refine (inv_bind (val_le _) (fun V HV => inv_ret _)).
  apply attempt_value_bound; [exact Hb|]. rewrite <- pow_bytes by (pose proof (len_pos bits Hb); lia). exact HV.
Qed.

Theorem gen_biguint_range : forall bits s v rest, 0 < bits -> bytes_ok s ->
  gen_biguint bits s = Ok (v, rest) -> 0 <= v < 2 ^ bits.
Proof. intros bits s v rest Hb Hs H. exact (proj1 (gen_biguint_ok bits Hb s v rest Hs H)). Qed.
Print Assumptions gen_biguint_range.

Lemma bitlen_pos bound : 0 < bound -> 0 < bitlen bound.
Proof.
  intro H. unfold bitlen. destruct (Z.leb_spec bound 0); [lia|]. pose proof (Z.log2_nonneg bound). lia.
Qed.

Lemma bitlen_spec bound : 0 < bound -> bound < 2 ^ bitlen bound.
Proof.
  intro H. unfold bitlen. destruct (Z.leb_spec bound 0); [lia|].
  pose proof (Z.log2_spec bound H) as [_ Hu]. replace (Z.log2 bound + 1) with (Z.succ (Z.log2 bound)) by lia.
  exact Hu.
Qed.

Lemma bitlen_lower b : 0 < b -> 2 ^ (bitlen b - 1) <= b.
Proof.
  intro H. unfold bitlen. destruct (Z.leb_spec b 0); [lia|].
  replace (Z.log2 b + 1 - 1) with (Z.log2 b) by lia. apply (Z.log2_spec b H).
Qed.

Lemma bitlen_le32 b : 0 < b < 2 ^ 32 -> 1 <= bitlen b <= 32.
Proof.
  intros [H0 H1]. pose proof (bitlen_pos b H0). split; [lia|].
  destruct (Z_le_gt_dec (bitlen b) 32) as [|Hgt]; [assumption|exfalso].
  pose proof (bitlen_lower b H0) as Hl.
  assert (2 ^ 32 <= 2 ^ (bitlen b - 1)) by (apply Z.pow_le_mono_r; lia). lia.
Qed.

Lemma gen_below_S f bound s :
  gen_below (S f) bound s =
  if bound <=? 0 then Panic
  else match gen_biguint (bitlen bound) s with
       | Ok (n, rest) => if n <? bound then Ok (n, rest) else gen_below f bound rest
       | Err => Err | Panic => Panic
       end.
Proof. reflexivity. Qed.

Lemma gen_below_accept fuel : forall bound s v rest, gen_below fuel bound s = Ok (v, rest) ->
  0 < bound /\ v < bound /\
  exists skipped s', s = skipped ++ s' /\ gen_biguint (bitlen bound) s' = Ok (v, rest).
Proof.
  induction fuel as [|f IH]; intros bound s v rest H; [discriminate|].
  rewrite gen_below_S in H. destruct (Z.leb_spec bound 0) as [Hb|Hb]; [discriminate|].
  destruct (gen_biguint (bitlen bound) s) as [[n r]| |] eqn:Eg; try discriminate.
  destruct (Z.ltb_spec n bound) as [Hlt|Hge].
  - injection H as <- <-. repeat split; try assumption. exists [], s. auto.
  - destruct (IH _ _ _ _ H) as (_ & Hv & sk & s' & -> & Eg'). repeat split; try assumption.
    apply gen_biguint_inv in Eg as (b & -> & _). exists (b ++ sk), s'. rewrite app_assoc. auto.
Qed.

Lemma gen_below_bound_pos fuel bound s v rest : gen_below fuel bound s = Ok (v, rest) -> 0 < bound.
Proof. intro H. apply (gen_below_accept _ _ _ _ _ H). Qed.

Lemma gen_below_ok fuel bound s v rest : bytes_ok s ->
  gen_below fuel bound s = Ok (v, rest) -> 0 <= v < bound /\ bytes_ok rest.
Proof.
  intros Hs H. apply gen_below_accept in H as (Hb & Hv & sk & s' & -> & Eg).
  apply bytes_ok_app in Hs as [_ Hs].
  destruct (gen_biguint_ok _ (bitlen_pos bound Hb) _ _ _ Hs Eg) as [Hn Hr]. split; [lia|exact Hr].
Qed.

Theorem gen_below_range : forall fuel bound s v rest, bytes_ok s ->
  gen_below fuel bound s = Ok (v, rest) -> 0 <= v < bound.
Proof. intros fuel bound s v rest Hs H. exact (proj1 (gen_below_ok _ _ _ _ _ Hs H)). Qed.
Print Assumptions gen_below_range.

Lemma gen_below_rest_ok : forall fuel bound s v rest, bytes_ok s ->
  gen_below fuel bound s = Ok (v, rest) -> bytes_ok rest.
Proof. intros fuel bound s v rest Hs H. exact (proj2 (gen_below_ok _ _ _ _ _ Hs H)). Qed.

(* a returned value implies 0 < bound, hence bitlen >= 1 and at least one 32-bit word consumed *)
Theorem gen_below_suffix : forall fuel bound s v rest, gen_below fuel bound s = Ok (v, rest) ->
  exists used, s = used ++ rest /\ (length used > 0)%nat.
Proof.
  intros fuel bound s v rest H. apply gen_below_accept in H as (Hb & _ & sk & s' & -> & Eg).
  apply gen_biguint_inv in Eg as (b & -> & Lb & _).
  exists (sk ++ b). split; [apply app_assoc|].
  rewrite app_length, Lb. pose proof (len_pos _ (bitlen_pos bound Hb)). lia.
Qed.
Print Assumptions gen_below_suffix.

Lemma gen_below_np fuel : forall bound s, 0 < bound -> gen_below fuel bound s <> Panic.
Proof.
  induction fuel as [|f IH]; intros bound s Hb; [discriminate|].
  rewrite gen_below_S. destruct (Z.leb_spec bound 0); [lia|].
  pose proof (gen_biguint_np (bitlen bound) s) as Hnp.
  destruct (gen_biguint (bitlen bound) s) as [[n r]| |]; try congruence.
  destruct (n <? bound); [discriminate|]. apply IH. exact Hb.
Qed.

Corollary rnd_exp_in_range : forall P s v rest, bytes_ok s ->
  rnd_exp_bigint P s = Ok (v, rest) -> 0 <= v < p_q P.
Proof. intros P s v rest Hs H. unfold rnd_exp_bigint in H. eapply gen_below_range; eassumption. Qed.
Print Assumptions rnd_exp_in_range.

Corollary rnd_plaintext_in_space : forall P s v rest, bytes_ok s ->
  rnd_plaintext_bigint P s = Ok (v, rest) -> 0 <= v < p_q P - 1.
Proof. intros P s v rest Hs H. unfold rnd_plaintext_bigint in H. eapply gen_below_range; eassumption. Qed.
Print Assumptions rnd_plaintext_in_space.

Lemma rnd_bigint_inv K P s e rest : rnd_bigint K P s = Ok (e, rest) ->
  exists m, rnd_plaintext_bigint P s = Ok (m, rest) /\ encode K P m = Ok e.
Proof.
  unfold rnd_bigint, rnd_plaintext_bigint.
  destruct (gen_below RNG_FUEL (p_q P - 1) s) as [[m r]| |]; try discriminate.
  destruct (encode K P m) as [e'| |] eqn:Ee; try discriminate. intro H. injection H as <- <-. eauto.
Qed.

(* [bytes_ok s] is needed: on a stream with out-of-range "bytes" le_int can be negative, gen_below then
   returns e.g. -1 and encode (-1) = Err (legendre 0 = 0), which rnd() turns into a panic *)
Theorem rnd_bigint_no_panic : forall K P, SafePrime P -> forall s, bytes_ok s -> rnd_bigint K P s <> Panic.
Proof.
  intros K P S s Hs. unfold rnd_bigint.
  pose proof (gp_q P (sp_good P S)) as Hq.
  pose proof (gen_below_np RNG_FUEL (p_q P - 1) s ltac:(lia)) as Hnp.
  destruct (gen_below RNG_FUEL (p_q P - 1) s) as [[m r]| |] eqn:Eg; try congruence.
  pose proof (gen_below_range _ _ _ _ _ Hs Eg) as Hm.
  destruct (encode_decode K P S m Hm) as (e & Ee & _). rewrite Ee. discriminate.
Qed.
Print Assumptions rnd_bigint_no_panic.

Theorem rnd_bigint_decodes : forall K P, SafePrime P -> forall s e rest, bytes_ok s ->
  rnd_bigint K P s = Ok (e, rest) ->
  exists m, rnd_plaintext_bigint P s = Ok (m, rest) /\ 0 <= m < p_q P - 1 /\ decode P e = Ok m.
Proof.
  intros K P S s e rest Hs H. apply rnd_bigint_inv in H as (m & Hm & Ee).
  pose proof (rnd_plaintext_in_space _ _ _ _ Hs Hm) as Hr.
  destruct (encode_decode K P S m Hr) as (e' & Ee' & _ & Hd). rewrite Ee in Ee'. injection Ee' as <-.
  exists m. auto.
Qed.
Print Assumptions rnd_bigint_decodes.

Theorem rnd_bigint_member : forall K P, SafePrime P -> forall s e rest, bytes_ok s ->
  rnd_bigint K P s = Ok (e, rest) -> member P e.
Proof.
  intros K P S s e rest Hs H. apply rnd_bigint_inv in H as (m & Hm & Ee).
  destruct (encode_decode K P S m (rnd_plaintext_in_space _ _ _ _ Hs Hm)) as (e' & Ee' & Hmem & _).
  rewrite Ee in Ee'. injection Ee' as <-. exact Hmem.
Qed.
Print Assumptions rnd_bigint_member.

Theorem gen_biguint_decomposition : forall bits s v rest, 0 < bits -> bytes_ok s ->
  gen_biguint bits s = Ok (v, rest) ->
  let len := (bits + 31) / 32 in let rem := bits mod 32 in
  exists d, 0 <= d < 2 ^ (if rem =? 0 then 0 else 32 - rem) /\
    le_int (firstn (Z.to_nat (4 * len)) s) =
      (if rem =? 0 then v
       else v mod 2 ^ (32 * (len - 1))
            + 2 ^ (32 * (len - 1)) * (d + 2 ^ (32 - rem) * (v / 2 ^ (32 * (len - 1))))).
Proof.
  intros bits s v rest Hb Hs H. cbv zeta.
  apply gen_biguint_inv in H as (b & -> & Lb & ->).
  rewrite <- Lb, firstn_app, Nat.sub_diag, firstn_all, app_nil_r. unfold attempt_value.
  destruct (Z.eqb_spec (bits mod 32) 0) as [E|E].
  - exists 0. split; [change (2 ^ 0) with 1; lia|reflexivity].
  - destruct (layout_pows bits Hb E) as (HM & HS & _).
    exists ((le_int b / 2 ^ (32 * ((bits + 31) / 32 - 1))) mod 2 ^ (32 - bits mod 32)).
    apply keep_bits_split; assumption.
Qed.
Print Assumptions gen_biguint_decomposition.

Theorem gen_biguint_onto : forall bits v rest, 0 < bits -> 0 <= v < 2 ^ bits -> bytes_ok rest ->
  exists s, bytes_ok s /\ length s = Z.to_nat (4 * ((bits + 31) / 32)) /\
            gen_biguint bits (s ++ rest) = Ok (v, rest).
Proof.
  intros bits v rest Hb Hv Hrest. destruct (attempt_value_onto bits v Hb Hv) as (V & HV & <-).
  rewrite <- pow_bytes in HV by (pose proof (len_pos bits Hb); lia).
  set (n := Z.to_nat (4 * ((bits + 31) / 32))) in *.
  exists (le_fixed n V). split; [apply le_fixed_ok|]. split; [apply le_fixed_len|].
  rewrite gen_biguint_rd. fold n. unfold rd_bind. rewrite (proj1 (enc_le n V HV) rest). reflexivity.
Qed.
Print Assumptions gen_biguint_onto.

Theorem gen_below_onto : forall bound v rest, 0 <= v < bound -> bytes_ok rest ->
  exists s, bytes_ok s /\ gen_below RNG_FUEL bound (s ++ rest) = Ok (v, rest).
Proof.
  intros bound v rest Hv Hrest.
  assert (Hb : 0 < bound) by lia.
  pose proof (bitlen_spec bound Hb) as Hbl.
  destruct (gen_biguint_onto (bitlen bound) v rest (bitlen_pos bound Hb) ltac:(lia) Hrest)
    as (s & Hs & _ & Eg).
  exists s. split; [exact Hs|].
  unfold RNG_FUEL. change 200%nat with (S 199). rewrite gen_below_S.
  destruct (Z.leb_spec bound 0); [lia|]. rewrite Eg.
  destruct (Z.ltb_spec v bound); [reflexivity|lia].
Qed.
Print Assumptions gen_below_onto.

Fixpoint fy (i : nat) (l : list Z) (js : list Z) : list Z :=      (* js = [j_i; j_(i-1); ...; j_1] *)
  match i, js with
  | S i', j :: js' => fy i' (swap_nth l i (Z.to_nat j)) js'
  | _, _ => l
  end.

Lemma swap_nth_at l i j : (i < length l)%nat -> (j < length l)%nat ->
  nth i (swap_nth l i j) 0 = nth j l 0.
Proof.
  intros Hi Hj. rewrite ShuffleRel.swap_nth_upd.
  destruct (Nat.eq_dec i j) as [->|Hne].
  - apply ShuffleRel.upd_nth_same. rewrite ShuffleRel.upd_length by exact Hj. exact Hj.
  - rewrite ShuffleRel.upd_nth_other by (try rewrite ShuffleRel.upd_length by exact Hi; assumption).
    apply ShuffleRel.upd_nth_same. exact Hi.
Qed.

Lemma swap_nth_other l i j p : (i < length l)%nat -> (j < length l)%nat -> p <> i -> p <> j ->
  nth p (swap_nth l i j) 0 = nth p l 0.
Proof.
  intros Hi Hj Hpi Hpj. rewrite ShuffleRel.swap_nth_upd.
  rewrite ShuffleRel.upd_nth_other by (try rewrite ShuffleRel.upd_length by exact Hi; assumption).
  apply ShuffleRel.upd_nth_other; assumption.
Qed.

Definition draws_ok (i : nat) (js : list Z) : Prop :=
  forall k j, nth_error js k = Some j -> 0 <= j <= Z.of_nat (i - k).

Lemma draws_ok_cons i j js : draws_ok (S i) (j :: js) <-> 0 <= j <= Z.of_nat (S i) /\ draws_ok i js.
Proof.
  split.
  - intro H. split; [exact (H O j eq_refl)|]. intros k x Hk. exact (H (S k) x Hk).
  - intros [Hj H] [|k] x Hk; [injection Hk as <-; exact Hj|exact (H k x Hk)].
Qed.

Lemma fy_above : forall i l js, (i < length l)%nat -> draws_ok i js ->
  length (fy i l js) = length l /\ forall p, (i < p)%nat -> nth p (fy i l js) 0 = nth p l 0.
Proof.
  induction i as [|i IH]; intros l js Hi Hd; [split; reflexivity|].
  destruct js as [|j js]; [split; reflexivity|]. cbn [fy].
  apply draws_ok_cons in Hd as [Hj Hd].
  assert (L : length (swap_nth l (S i) (Z.to_nat j)) = length l) by (apply ShuffleRel.swap_nth_length; lia).
  destruct (IH (swap_nth l (S i) (Z.to_nat j)) js ltac:(lia) Hd) as [IHl IHp]. split; [congruence|].
  intros p Hp. rewrite IHp by lia. apply swap_nth_other; lia.
Qed.

Lemma fy_length : forall i l js, (i < length l)%nat -> draws_ok i js -> length (fy i l js) = length l.
Proof. intros i l js Hi Hd. apply fy_above; assumption. Qed.

Lemma fy_frozen i l js p : (i < length l)%nat -> draws_ok i js -> (i < p)%nat ->
  nth p (fy i l js) 0 = nth p l 0.
Proof. intros Hi Hd. apply fy_above; assumption. Qed.

(* step i puts l[j_i] at position i, where it stays *)
Lemma fy_top i l j js : (S i < length l)%nat -> draws_ok (S i) (j :: js) ->
  nth (S i) (fy (S i) l (j :: js)) 0 = nth (Z.to_nat j) l 0.
Proof.
  intros Hi [Hj Hd]%draws_ok_cons. cbn [fy].
  rewrite fy_frozen by (rewrite ?ShuffleRel.swap_nth_length; assumption || lia). apply swap_nth_at; lia.
Qed.

Lemma fy_injective_gen : forall i l js js', NoDup l -> (i < length l)%nat ->
  length js = i -> length js' = i -> draws_ok i js -> draws_ok i js' ->
  fy i l js = fy i l js' -> js = js'.
Proof.
  induction i as [|i IH]; intros l js js' Hnd Hi Ljs Ljs' Hd Hd' E.
  - destruct js; [|discriminate]. destruct js'; [reflexivity|discriminate].
  - destruct js as [|j js]; [discriminate|]. destruct js' as [|j' js']; [discriminate|].
    pose proof (fy_top i l j js Hi Hd) as T. rewrite E, (fy_top i l j' js' Hi Hd') in T.
    apply draws_ok_cons in Hd as [Hj Hd]. apply draws_ok_cons in Hd' as [Hj' Hd'].
    assert (j = j') as <- by (apply (proj1 (NoDup_nth l 0) Hnd) in T; lia).
    f_equal. cbn [fy length] in *.
    apply (IH (swap_nth l (S i) (Z.to_nat j))); try assumption; try lia.
    + eapply Permutation_NoDup; [|exact Hnd]. apply Permutation_sym, ShuffleRel.swap_nth_perm; lia.
    + rewrite ShuffleRel.swap_nth_length; lia.
Qed.

Theorem fy_injective : forall n js js', length js = pred n -> length js' = pred n ->
  (forall k j, nth_error js k = Some j -> 0 <= j <= Z.of_nat (pred n - k)) ->
  (forall k j, nth_error js' k = Some j -> 0 <= j <= Z.of_nat (pred n - k)) ->
  fy (pred n) (iota n) js = fy (pred n) (iota n) js' -> js = js'.
Proof.
  intros n js js' Ljs Ljs' Hd Hd' E.
  destruct n as [|n].
  - cbn [pred] in *. destruct js; [|discriminate]. destruct js'; [reflexivity|discriminate].
  - cbn [pred] in *. apply (fy_injective_gen n (iota (S n))); try assumption.
    + apply iota_NoDup.
    + rewrite iota_length. lia.
Qed.
Print Assumptions fy_injective.

Lemma shuffle_from_draws : forall i l s l' rest, shuffle_from i l s = Ok (l', rest) ->
  exists js, length js = i /\ l' = fy i l js /\ (bytes_ok s -> draws_ok i js /\ bytes_ok rest).
Proof.
  induction i as [|i IH]; intros l s l' rest H; cbn [shuffle_from] in H.
  - injection H as <- <-. exists []. split; [reflexivity|]. split; [reflexivity|]. intro Hs. split; [|exact Hs].
    intros [|k] j Hk; discriminate.
  - destruct (gen_index RNG_FUEL (Z.of_nat (S (S i))) s) as [[j r]| |] eqn:Eg; try discriminate.
    destruct (IH _ _ _ _ H) as (js & Ljs & El & Hd).
    exists (j :: js). split; [cbn [length]; lia|]. split; [exact El|]. intro Hs.
    pose proof (proj1 (Forall_forall _ _) Hs) as Hs'.
    destruct (Hd (proj2 (Forall_forall _ _) (ShuffleRel.gen_index_rest _ _ _ _ _ Hs' Eg))) as [Hd' Hrest].
    split; [|exact Hrest]. apply draws_ok_cons. split; [|exact Hd'].
    assert (0 <= j < Z.of_nat (S (S i))) by (eapply ShuffleRel.gen_index_range_gen; [lia|exact Hs'|exact Eg]). lia.
Qed.

Theorem shuffle_from_is_fy : forall i l s l' rest, shuffle_from i l s = Ok (l', rest) ->
  exists js, length js = i /\ l' = fy i l js.
Proof.
  intros i l s l' rest H. destruct (shuffle_from_draws _ _ _ _ _ H) as (js & Ljs & El & _). eauto.
Qed.
Print Assumptions shuffle_from_is_fy.

Theorem shuffle_from_is_fy_bounded : forall i l s l' rest, bytes_ok s ->
  shuffle_from i l s = Ok (l', rest) ->
  exists js, length js = i /\ draws_ok i js /\ l' = fy i l js /\ bytes_ok rest.
Proof.
  intros i l s l' rest Hs H. destruct (shuffle_from_draws _ _ _ _ _ H) as (js & Ljs & El & Hd).
  destruct (Hd Hs) as [Hd' Hrest]. eauto.
Qed.
Print Assumptions shuffle_from_is_fy_bounded.

Corollary gen_permutation_is_fy : forall n s l rest, bytes_ok s -> gen_permutation n s = Ok (l, rest) ->
  exists js, length js = pred n /\ draws_ok (pred n) js /\ l = fy (pred n) (iota n) js.
Proof.
  intros n s l rest Hs H. unfold gen_permutation in H. fold (iota n) in H.
  destruct (shuffle_from_is_fy_bounded _ _ _ _ _ Hs H) as (js & Ljs & Hd & El & _). eauto.
Qed.
Print Assumptions gen_permutation_is_fy.
