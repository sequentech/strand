(* Proofs/ElgamalP.v — ElGamal over any backend satisfying the laws: decrypt inverts encrypt, the
   exponential variant, what decryption under a part of the key leaves,
   homomorphic product. All of it goes through one characterisation: on member components, decrypt
   returns the d with d * gr^sk = mhr. *)
From Coq Require Import ZArith Lia.
From Strand Require Import Model.Outcome Model.Backend Model.Zkp Proofs.Laws.
Open Scope Z_scope.

Section Elgamal.
  Variable B : Backend.
  Variable mem : E B -> Prop.
  Hypothesis L : Laws B mem.
  Notation mulp := (b_mulp B).
  Notation pow := (b_pow B).
  Notation g := (b_gen B).

  Lemma enc_mem pk m r : mem pk -> mem m -> 0 <= r ->
    mem (mhr (encrypt_with_randomness B pk m r)) /\ mem (gr (encrypt_with_randomness B pk m r)).
  Proof.
    intros Hpk Hm Hr. cbn [encrypt_with_randomness mhr gr]. split.
    - apply (mem_mulp B mem L); [exact Hm|]. apply (pow_mem B mem L); assumption.
    - apply (gpow_mem B mem L); exact Hr.
  Qed.

  Lemma decrypt_char sk c : mem (mhr c) -> mem (gr c) -> 0 <= sk ->
    exists i, decrypt B sk c = Ok (mulp (mhr c) i) /\ mem i /\ mulp (pow (gr c) sk) i = b_one B /\
              b_invp B (pow (gr c) sk) = Ok i.
  Proof.
    intros Hm Hg Hsk. unfold decrypt, b_divp.
    assert (Hf : mem (pow (gr c) sk)) by memt.
    destruct (invp_ok B mem L _ Hf) as (i & Ei & Hi & Hinv).
    exists i. rewrite Ei. cbn [bind]. auto.
  Qed.

  Lemma decrypt_sound sk c d : mem (mhr c) -> mem (gr c) -> 0 <= sk ->
    decrypt B sk c = Ok d -> mem d /\ mulp d (pow (gr c) sk) = mhr c.
  Proof.
    intros Hm Hg Hsk E. destruct (decrypt_char sk c Hm Hg Hsk) as (i & D & Hi & Hinv & _).
    rewrite D in E. injection E as <-. split; [memt|].
    apply (mulp_inv_r B mem L); [assumption|assumption|memt|].
    rewrite (mulp_comm B mem L) by memt. exact Hinv.
  Qed.

  Lemma decrypt_complete sk c d : mem (mhr c) -> mem (gr c) -> 0 <= sk -> mem d ->
    mulp d (pow (gr c) sk) = mhr c -> decrypt B sk c = Ok d.
  Proof.
    intros Hm Hg Hsk Hd E. destruct (decrypt_char sk c Hm Hg Hsk) as (i & D & Hi & Hinv & _).
    rewrite D, <- E. f_equal. apply (mulp_inv_r B mem L); [assumption|memt|assumption|exact Hinv].
  Qed.

  Lemma decrypt_short_key sk x m r : 0 <= sk -> 0 <= x -> 0 <= r -> mem m ->
    let c := encrypt_with_randomness B (pk_of_sk B (sk + x)) m r in
    decrypt B sk c = Ok (mulp m (pow (gr c) x)).
  Proof.
    intros Hsk Hx Hr Hm c.
    destruct (enc_mem (pk_of_sk B (sk + x)) m r) as [Hc1 Hc2]; [apply (gpow_mem B mem L); lia|assumption..|].
    fold c in Hc1, Hc2. apply decrypt_complete; [assumption..|memt|].
    rewrite (mulp_assoc B mem L) by memt. rewrite <- (pow_add B mem L) by memt.
    subst c. cbn [encrypt_with_randomness mhr gr]. unfold pk_of_sk, b_gpow.
    fold (mulp m (pow (pow g (sk + x)) r)). f_equal.
    rewrite !(pow_mul B mem L) by memt. f_equal. ring.
  Qed.

  Theorem decrypt_encrypt sk m r : 0 <= sk -> 0 <= r -> mem m ->
    decrypt B sk (encrypt_with_randomness B (pk_of_sk B sk) m r) = Ok m.
  Proof.
    intros Hsk Hr Hm. pose proof (decrypt_short_key sk 0 m r Hsk (Z.le_refl 0) Hr Hm) as E.
    cbv zeta in E. rewrite Z.add_0_r in E. rewrite E. f_equal.
    rewrite (pow_0 B mem L) by (apply (gpow_mem B mem L); exact Hr). apply (mulp_one_r B mem L); exact Hm.
  Qed.

  Corollary decrypt_encrypt_exponential sk k r : 0 <= sk -> 0 <= r -> 0 <= k ->
    decrypt B sk (encrypt_exponential B (pk_of_sk B sk) k r) = Ok (b_gpow B k).
  Proof. intros. unfold encrypt_exponential. apply decrypt_encrypt; auto. apply (gpow_mem B mem L); assumption. Qed.

  Theorem decrypt_ct_mul sk c1 c2 d1 d2 :
    mem (mhr c1) -> mem (gr c1) -> mem (mhr c2) -> mem (gr c2) -> 0 <= sk ->
    decrypt B sk c1 = Ok d1 -> decrypt B sk c2 = Ok d2 ->
    decrypt B sk (ct_mul B c1 c2) = Ok (mulp d1 d2).
  Proof.
    intros Hm1 Hg1 Hm2 Hg2 Hsk E1 E2.
    destruct (decrypt_sound sk c1 d1 Hm1 Hg1 Hsk E1) as [Hd1 F1].
    destruct (decrypt_sound sk c2 d2 Hm2 Hg2 Hsk E2) as [Hd2 F2].
    apply decrypt_complete; cbn [ct_mul mhr gr]; [memt..|].
    rewrite (pow_mulp B mem L) by assumption.
    rewrite (mulp4 B mem L) by memt. now rewrite F1, F2.
  Qed.
End Elgamal.
