(* Proofs/ZLaws.v — the multiplicative backends satisfy the backend laws (Proofs/Laws.v) on the set
   member P = { a | 1 <= a < p /\ a^q mod p = 1 }, for every arithmetic kernel, both flavors, and every
   parameter record with 1 < q, 1 < p and a member generator. No primality is needed for the laws. *)
From Coq Require Import ZArith Zpow_facts Lia Bool.
From Strand Require Import Base.ZUtil Base.InvM Model.Outcome Model.Backend Model.ZBackend
  Proofs.Laws.
Open Scope Z_scope.

Definition member (P : Params) (a : Z) : Prop :=
  1 <= a < p_p P /\ a ^ p_q P mod p_p P = 1.

Definition memberb (P : Params) (a : Z) : bool :=
  (1 <=? a) && (a <? p_p P) && (powm a (p_q P) (p_p P) =? 1).

Record GoodParams (P : Params) : Prop := {
  gp_q : 1 < p_q P;
  gp_p : 1 < p_p P;
  gp_g : member P (p_g P)
}.

Lemma memberb_spec P a : 1 < p_p P -> (memberb P a = true <-> member P a).
Proof.
  intro Hp. unfold memberb, member. rewrite powm_spec by lia.
  rewrite !andb_true_iff, !Z.leb_le, !Z.ltb_lt, Z.eqb_eq. tauto.
Qed.

Section ZLaws.
  Variable K : Kernel.
  Variable fl : flavor.
  Variable P : Params.
  Hypothesis G : GoodParams P.
  Notation p := (p_p P).
  Notation q := (p_q P).
  Notation B := (ZB K fl P).

  Let Hq : 1 < q := gp_q P G.
  Let Hp : 1 < p := gp_p P G.

  Lemma member_intro r : 0 <= r < p -> r ^ q mod p = 1 -> member P r.
  Proof.
    intros Hr Hpow. split; [|exact Hpow].
    destruct (Z.eq_dec r 0) as [->|]; [|lia].
    rewrite Z.pow_0_l in Hpow by lia. rewrite Z.mod_0_l in Hpow by lia. discriminate.
  Qed.

  Lemma member_one : member P 1.
  Proof. split; [lia|]. rewrite Z.pow_1_l by lia. apply Z.mod_small; lia. Qed.

  Lemma member_mulmod a b : member P a -> member P b -> member P ((a * b) mod p).
  Proof.
    intros [Ha Ea] [Hb Eb]. apply member_intro; [apply Z.mod_pos_bound; lia|].
    rewrite <- Zpower_mod by lia. rewrite Z.pow_mul_l. rewrite Zmult_mod, Ea, Eb.
    apply Z.mod_small; lia.
  Qed.

  Lemma member_powmod a x : member P a -> 0 <= x -> member P (a ^ x mod p).
  Proof.
    intros [Ha Ea] Hx. apply member_intro; [apply Z.mod_pos_bound; lia|].
    rewrite <- Zpower_mod by lia. rewrite <- Z.pow_mul_r by lia.
    rewrite (Z.mul_comm x q), Z.pow_mul_r by lia.
    rewrite Zpower_mod by lia. rewrite Ea. rewrite Z.pow_1_l by lia. apply Z.mod_small; lia.
  Qed.

  (* the inverse of a member is its (q-1)-th power: a * a^(q-1) = a^q = 1 (mod p) *)
  Lemma member_inv a : member P a ->
    exists a', invm a p = Some a' /\ member P a' /\ (a * a') mod p = 1.
  Proof.
    intros Ha. exists (a ^ (q - 1) mod p).
    assert (E : (a * (a ^ (q - 1) mod p)) mod p = 1).
    { rewrite Zmult_mod_idemp_r, <- Z.pow_succ_r by lia.
      replace (Z.succ (q - 1)) with q by lia. apply Ha. }
    split; [|split; [apply member_powmod; [exact Ha|lia]|exact E]].
    apply invm_unique; [exact Hp|apply Z.mod_pos_bound; lia|exact E].
  Qed.

  Ltac kn := unfold b_mulp, b_gpow;
            cbn [ZB E b_q b_gen b_one b_mul b_modp b_invp b_pow b_eqb b_xadd b_xmul b_xmodq b_hash_to_exp];
            rewrite ?k_mod_ok, ?k_mul_ok, ?k_powm_ok, ?k_invm_ok, ?powm_spec by lia.

  Theorem ZB_laws : Laws B (member P).
  Proof.
    constructor.
    - exact Hq.
    - exact member_one.
    - exact (gp_g P G).
    - intros a b Ha Hb. kn. apply member_mulmod; assumption.
    - intros a [Ha _]. kn. apply Z.mod_small; lia.
    - intros a b. kn. apply Zmult_mod_idemp_l.
    - intros a b. kn. apply Zmult_mod_idemp_r.
    - intros a b _ _. kn. now rewrite Z.mul_comm.
    - intros a b c _ _ _. kn. rewrite Zmult_mod_idemp_l, Zmult_mod_idemp_r. now rewrite Z.mul_assoc.
    - intros a [Ha _]. kn. rewrite Z.mul_1_l. apply Z.mod_small; lia.
    - intros a Ha. destruct (member_inv a Ha) as (a' & E & Ha' & Hm).
      exists a'. kn. unfold z_inv. rewrite k_invm_ok, E. auto.
    - intros a x Ha Hx. kn. apply member_powmod; assumption.
    - intros a _. kn. rewrite Z.pow_0_r. apply Z.mod_small; lia.
    - intros a [Ha _]. kn. rewrite Z.pow_1_r. apply Z.mod_small; lia.
    - intros x Hx. kn. rewrite Z.pow_1_l by lia. apply Z.mod_small; lia.
    - intros a x y _ Hx Hy. kn. rewrite Z.pow_add_r by lia. apply Zmult_mod.
    - intros a x y _ Hx Hy. kn. rewrite <- Zpower_mod by lia. now rewrite Z.pow_mul_r by lia.
    - intros a b x _ _ Hx. kn. rewrite <- Zpower_mod by lia. rewrite Z.pow_mul_l. apply Zmult_mod.
    - intros a [_ Ea]. kn. exact Ea.
    - intros a b _ _. kn. apply Z.eqb_eq.
    - intros x y Hx Hy. kn. split; [lia | reflexivity].
    - intros x y Hx Hy. kn. split; [nia | reflexivity].
    - intros x _. kn. reflexivity.
    - intros bs. kn. unfold z_hash_to_exp. rewrite k_mod_ok. apply Z.mod_pos_bound; lia.
  Qed.
End ZLaws.
