(* Proofs/SizeP.v — decoded data is backed by input (the model-level half of C13's "memory in proportion to the input").
   For the wire readers of the multiplicative backends (all but the plaintext readers rd_P, rd_vecP) and every byte string:
       rd bs = Ok (v, rest)  ->  length rest + size v <= length bs
   where [size] counts what the decoded value retains: the bytes of every big integer (bsz), 4 per vector item and per
   length prefix. Hence nothing decodes to more data than the bytes it consumed, every accepted item count is
   backed by at least minsz input bytes per item (rd_vec; 4 for rd_svec, whose items then cost 4 bytes plus their
   own size), and a count that is not backed is refused before a single item is read. What the Rust allocator
   does with that (borsh's 4096-byte cautious pre-allocation, Vec growth) is measured by the counting allocator
   in the harness, not proved. *)
From Coq Require Import ZArith List Bool Lia.
From Strand Require Import Base.ZUtil Model.Outcome Model.Codec Model.ZBackend Model.Zkp Model.Wire
  Proofs.CodecP Proofs.WireP.
Import ListNotations.
Open Scope Z_scope.

(* bytes needed for a non-negative integer (at least one).  It is the fuel of [le_digits] in Model/Codec.v: the
   digit count of v > 0, and 1 for 0, whence the [S n] of bsz_bound. *)
Definition bsz (v : Z) : nat := S (Z.to_nat (Z.log2 v / 8)).

Lemma bsz_bound v n : 0 <= v < 256 ^ Z.of_nat n -> (bsz v <= S n)%nat.
Proof.
  intros [H0 H1]. unfold bsz. apply le_n_S.
  destruct (Z.eq_dec v 0) as [->|Hv]; [cbn; lia|].
  assert (Hl : Z.log2 v < 8 * Z.of_nat n).
  { apply Z.log2_lt_pow2; [lia|]. rewrite pow256 by lia. exact H1. }
  assert (Z.log2 v / 8 < Z.of_nat n) by (apply Z.div_lt_upper_bound; lia).
  pose proof (Z.log2_nonneg v). assert (0 <= Z.log2 v / 8) by (apply Z.div_pos; lia). lia.
Qed.

Definition BK {A} (sz : A -> nat) (rd : reader A) : Prop :=
  forall bs a r, bytes_ok bs -> rd bs = Ok (a, r) -> (length r + sz a <= length bs)%nat /\ bytes_ok r.

(* inside a chain of readers (Proofs/CodecP.v) the [n] bytes read so far are still there to pay for the value:
   [BK sz rd] is [BKc 0 sz rd] *)
Definition BKc {A} (n : nat) (sz : A -> nat) (rd : reader A) : Prop :=
  forall bs a r, bytes_ok bs -> rd bs = Ok (a, r) -> (length r + sz a <= n + length bs)%nat /\ bytes_ok r.

(* [va]: what is known of the value read first when the rest of the chain is entered *)
Lemma bk_bind_val {A C} {n} {sza : A -> nat} {va : A -> Prop} {sz : C -> nat} {ra k} :
  BK sza ra -> INV bytes_ok va ra -> (forall a, va a -> BKc (n + sza a) sz (k a)) -> BKc n sz (rd_bind ra k).
Proof.
  intros Ha Va Hk bs c r Hb E. unfold rd_bind in E.
  destruct (ra bs) as [[a r1]| |] eqn:Ea; try discriminate.
  destruct (Ha _ _ _ Hb Ea) as [L1 Hb1]. destruct (Hk a (proj1 (Va _ _ _ Hb Ea)) _ _ _ Hb1 E) as [L2 Hb2].
  split; [lia|exact Hb2].
Qed.

Lemma bk_bind {A C} {n} {sza : A -> nat} {sz : C -> nat} {ra k} :
  BK sza ra -> (forall a, BKc (n + sza a) sz (k a)) -> BKc n sz (rd_bind ra k).
Proof.
  intros Ha Hk. apply (bk_bind_val (va := fun _ => True) Ha); [|auto].
  intros bs a r Hb E. split; [exact I|exact (proj2 (Ha _ _ _ Hb E))].
Qed.

Lemma bk_chain {A C} {sza : A -> nat} {sz : C -> nat} {ra k} :
  BK sza ra -> (forall a, BKc (sza a) sz (k a)) -> BK sz (rd_bind ra k).
Proof. exact (bk_bind (n := 0)). Qed.

Lemma bk_ret {C} {n} {sz : C -> nat} {c} : (sz c <= n)%nat -> BKc n sz (rd_ret c).
Proof. intros H bs a r Hb E. injection E as <- <-. split; [lia|exact Hb]. Qed.

Lemma bk_lift {C} {n} {sz : C -> nat} {o} : (forall c, o = Ok c -> (sz c <= n)%nat) -> BKc n sz (rd_lift o).
Proof.
  intros H bs a r Hb E. destruct o as [c| |]; try discriminate. injection E as <- <-.
  pose proof (H c eq_refl). split; [lia|exact Hb].
Qed.

Lemma bk_guard {C} {n} {sz : C -> nat} {g rd} : BKc n sz rd -> BKc n sz (rd_guard g rd).
Proof. intros H bs a r Hb E. unfold rd_guard in E. destruct (g bs); [eauto|discriminate]. Qed.

Lemma bk_frame {A} n (sz : A -> nat) rd : BK sz rd -> BKc n (fun a => n + sz a)%nat rd.
Proof. intros H bs a r Hb E. destruct (H _ _ _ Hb E) as [L Hr]. split; [lia|exact Hr]. Qed.

Lemma bk_take_n n : BK (fun b : bytes => length b) (take_n n).
Proof.
  intros bs a r Hb H. apply take_n_inv in H as [-> L]. apply bytes_ok_split in Hb as [Ha Hr].
  rewrite app_length. split; [lia|exact Hr].
Qed.

Lemma bk_le n : BK (fun _ : Z => n) (rd_le n).
Proof.
  intros bs a r Hb H. apply rd_le_inv in H as (x & -> & L & _).
  apply bytes_ok_split in Hb as [_ Hr]. rewrite app_length. split; [lia|exact Hr].
Qed.

Lemma bk_u16 : BK (fun _ : Z => 2%nat) rd_u16.
Proof. exact (bk_le 2). Qed.

Lemma bk_vec_u8 : BK (fun b : bytes => 4 + length b)%nat rd_vec_u8.
Proof. exact (bk_chain (bk_le 4) (fun n => bk_guard (bk_frame 4 _ _ (bk_take_n _)))). Qed.

Fixpoint sum_sz {A} (sz : A -> nat) (l : list A) : nat :=
  match l with [] => O | a :: t => (sz a + sum_sz sz t)%nat end.

Lemma bk_rd_n {A} (sz : A -> nat) (rd : reader A) : BK sz rd -> forall k, BK (sum_sz sz) (rd_n rd k).
Proof.
  intros H k. induction k as [|k IH]; [exact (bk_ret (n := 0) (sz := sum_sz sz) (c := []) (le_n 0))|].
  apply (bk_chain H). intro a. apply (bk_bind IH). intro l. apply bk_ret, le_n.
Qed.

Lemma bk_rd_vec {A} minsz (sz : A -> nat) (rd : reader A) : BK sz rd ->
  BK (fun l => 4 + sum_sz sz l)%nat (rd_vec minsz rd).
Proof. intro H. exact (bk_chain (bk_le 4) (fun n => bk_guard (bk_frame 4 _ _ (bk_rd_n sz rd H _)))). Qed.

Lemma rd_vec_count_backed {A} minsz (rd : reader A) bs l r : rd_vec minsz rd bs = Ok (l, r) ->
  (4 + length l * minsz <= length bs)%nat.
Proof.
  unfold rd_vec. intro E. destruct (rd_u32 bs) as [[n r1]| |] eqn:En; try discriminate.
  apply rd_u32_inv in En as (a & -> & La & ->).
  destruct (Z.leb_spec (le_int a * Z.of_nat minsz) (Z.of_nat (length r1))) as [Hle|]; try discriminate.
  rewrite app_length, La, (rd_n_length rd _ _ _ _ E).
  destruct (Z_lt_le_dec (le_int a) 0) as [Hn|Hn].
  - assert (Z.to_nat (le_int a) = 0%nat) as -> by lia. lia.
  - apply Nat2Z.inj_le. rewrite Nat2Z.inj_add, Nat2Z.inj_mul, Z2Nat.id by lia. lia.
Qed.

Lemma rd_vec_unbacked_refused {A} minsz (rd : reader A) a r :
  length a = 4%nat -> Z.of_nat (length r) < le_int a * Z.of_nat minsz -> rd_vec minsz rd (a ++ r) = Err.
Proof.
  intros La H. unfold rd_vec, rd_u32.
  replace 4%nat with (length a) by exact La. rewrite take_n_app.
  destruct (Z.leb_spec (le_int a * Z.of_nat minsz) (Z.of_nat (length r))); [lia|reflexivity].
Qed.

Lemma strict_bk {A} (sz : A -> nat) (rd : reader A) : BK sz rd ->
  forall it a, bytes_ok it -> strict rd it = Ok a -> (sz a <= length it)%nat.
Proof.
  intros H it a Hb E. apply strict_inv in E. destruct (H _ _ _ Hb E) as [L _]. cbn in L. lia.
Qed.

Lemma mapM_strict_sum {A} (sz : A -> nat) (rd : reader A) : BK sz rd ->
  forall items l, Forall bytes_ok items -> mapM (strict rd) items = Ok l ->
  (sum_sz (fun a => 4 + sz a) l <= sum_sz (fun b : bytes => 4 + length b) items)%nat /\ length l = length items.
Proof.
  intros H items. induction items as [|it items IH]; intros l Hb E; cbn [mapM] in E.
  - injection E as <-. cbn. lia.
  - inversion Hb as [|? ? Hit Hits]; subst.
    destruct (strict rd it) as [a| |] eqn:Ea; try discriminate.
    destruct (mapM (strict rd) items) as [l1| |] eqn:El; try discriminate.
    injection E as <-. pose proof (strict_bk sz rd H it a Hit Ea). destruct (IH l1 Hits eq_refl) as [S1 S2].
    cbn [sum_sz length]. lia.
Qed.

Section W.
  Variable K : Kernel.
  Variable fl : flavor.
  Variable P : Params.
  Notation B := (ZB K fl P).
  Local Open Scope outcome_scope.

  (* StrandVector*: 4 bytes for the count, then per item its 4-byte length prefix and the item's own size *)
  Definition sz_vec {A} (sz : A -> nat) (l : list A) : nat := (4 + sum_sz (fun a => 4 + sz a) l)%nat.

  Lemma bk_svec {A} (sz : A -> nat) (rd : reader A) : BK sz rd -> BK (sz_vec sz) (rd_svec rd).
  Proof.
    intro H. unfold sz_vec.
    apply (bk_bind_val (n := 0) (bk_rd_vec 4 _ _ bk_vec_u8)
             (inv_vec bytes_ok (fun _ => True) bytes_ok 4 rd_vec_u8 (inv_le _ 4 bytes_ok_split) (inv_vec_u8 _ bytes_ok_split))).
    intros items [Hits _]. apply bk_lift. intros l E. destruct (mapM_strict_sum sz rd H items l Hits E) as [S1 _]. lia.
  Qed.

  (* read off the definition: element_from_bytes_spec would ask 1 < p *)
  Lemma element_from_bytes_val b v : element_from_bytes K fl P b = Ok v -> v = int_of_bytes fl b.
  Proof.
    unfold element_from_bytes, element_from_int. destruct (_ || _); [discriminate|].
    destruct (negb _); [discriminate|]. intro H. injection H as <-. reflexivity.
  Qed.

  Lemma exp_from_bytes_val b v : exp_from_bytes fl P b = Ok v -> v = int_of_bytes fl b.
  Proof. intro H. exact (proj1 (proj1 (exp_from_bytes_spec fl P b v) H)). Qed.

  Lemma bk_int (dec : bytes -> outcome Z) : (forall b v, dec b = Ok v -> v = int_of_bytes fl b) ->
    BK bsz (rd_int dec).
  Proof.
    intro Hd. apply (bk_bind_val (n := 0) bk_vec_u8 val_vec_u8). intros b [Hb _]. apply bk_lift. intros v E.
    rewrite (Hd b v E). pose proof (bsz_bound _ _ (int_of_bytes_bound fl b Hb)). lia.
  Qed.

  Lemma bk_E : BK bsz (rd_E K fl P).
  Proof. exact (bk_int _ element_from_bytes_val). Qed.

  Lemma bk_X : BK bsz (rd_X fl P).
  Proof. exact (bk_int _ exp_from_bytes_val). Qed.

  Definition sz_ct (c : ctext B) : nat := (bsz (mhr c) + bsz (gr c))%nat.
  Lemma bk_ct : BK sz_ct (rd_ct K fl P).
  Proof. apply (bk_chain bk_E). intro a. apply (bk_bind bk_E). intro b. apply bk_ret, le_n. Qed.

  Definition sz_sk (vp : Z * Z) : nat := (bsz (fst vp) + bsz (snd vp))%nat.
  Lemma bk_sk : BK sz_sk (rd_sk K fl P).
  Proof. apply (bk_chain bk_X). intro x. apply (bk_bind bk_E). intro e. apply bk_ret, le_n. Qed.

  Definition sz_schnorr (s : schnorr B) : nat := (bsz (s_com B s) + bsz (s_chal B s) + bsz (s_resp B s))%nat.
  Lemma bk_schnorr : BK sz_schnorr (rd_schnorr K fl P).
  Proof. apply (bk_chain bk_E). intro a. do 2 (apply (bk_bind bk_X); intro). apply bk_ret, le_n. Qed.

  Definition sz_cp (s : cproof B) : nat :=
    (bsz (c_com1 B s) + bsz (c_com2 B s) + bsz (c_chal B s) + bsz (c_resp B s))%nat.
  Lemma bk_cp : BK sz_cp (rd_cp K fl P).
  Proof.
    apply (bk_chain bk_E). intro a. apply (bk_bind bk_E). intro b. do 2 (apply (bk_bind bk_X); intro).
    apply bk_ret, le_n.
  Qed.

  Definition sz_proof (w : sproof) : nat :=
    (bsz (sp_t1 w) + bsz (sp_t2 w) + bsz (sp_t3 w) + bsz (sp_t41 w) + bsz (sp_t42 w) + sz_vec bsz (sp_t_hats w) +
     bsz (sp_s1 w) + bsz (sp_s2 w) + bsz (sp_s3 w) + bsz (sp_s4 w) + sz_vec bsz (sp_s_hats w) + sz_vec bsz (sp_s_primes w) +
     sz_vec bsz (sp_cs w) + sz_vec bsz (sp_c_hats w))%nat.

  Lemma bk_proof : BK sz_proof (rd_proof K fl P).
  Proof.
    pose proof (bk_svec _ _ bk_E) as bk_vE. pose proof (bk_svec _ _ bk_X) as bk_vX.
    apply (bk_chain bk_E). intro. do 4 (apply (bk_bind bk_E); intro). apply (bk_bind bk_vE). intro.
    do 4 (apply (bk_bind bk_X); intro). do 2 (apply (bk_bind bk_vX); intro). do 2 (apply (bk_bind bk_vE); intro).
    apply bk_ret, le_n.
  Qed.

  Theorem decoded_data_is_backed_by_input :
    BK bsz (rd_E K fl P) /\ BK bsz (rd_X fl P) /\ BK sz_ct (rd_ct K fl P) /\ BK bsz (rd_pk K fl P) /\ BK sz_sk (rd_sk K fl P) /\
    BK sz_schnorr (rd_schnorr K fl P) /\ BK sz_cp (rd_cp K fl P) /\
    BK (sz_vec bsz) (rd_vecE K fl P) /\ BK (sz_vec bsz) (rd_vecX fl P) /\ BK (sz_vec sz_ct) (rd_vecC K fl P) /\
    BK (sz_vec sz_cp) (rd_vecCP K fl P) /\ BK sz_proof (rd_proof K fl P).
  Proof.
    exact (conj bk_E (conj bk_X (conj bk_ct (conj bk_E (conj bk_sk (conj bk_schnorr (conj bk_cp
          (conj (bk_svec _ _ bk_E) (conj (bk_svec _ _ bk_X) (conj (bk_svec _ _ bk_ct) (conj (bk_svec _ _ bk_cp) bk_proof))))))))))).
  Qed.

  Theorem strict_decode_no_larger_than_input {A} (sz : A -> nat) (rd : reader A) : BK sz rd ->
    forall bs v, bytes_ok bs -> strict rd bs = Ok v -> (sz v <= length bs)%nat.
  Proof. exact (strict_bk sz rd). Qed.
End W.

Print Assumptions decoded_data_is_backed_by_input.
Print Assumptions rd_vec_count_backed.
Print Assumptions rd_vec_unbacked_refused.
