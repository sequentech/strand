(* Proofs/ThresholdP.v — threshold.rs over any lawful backend: the share is the polynomial value
   (eval_poly), Feldman consistency of g^share with the verification-key factor built from the
   coefficient commitments (C09), the library's Lagrange coefficient satisfies the defining congruence
   of Base/Poly.v, interpolation at zero, and the combination of the present trustees' decryption
   factors (C10). Three facts about backend operations that Laws does not cover are section hypotheses;
   they are proved for the multiplicative backends at the end. *)
From Coq Require Import ZArith Znumtheory List Lia.
From Strand Require Import Base.ZUtil Base.InvM Model.Outcome Model.Backend Model.ZBackend
  Model.Shuffler Model.Keymaker Proofs.Laws Proofs.SigmaP Proofs.ZLaws
  Proofs.ZInst Base.Poly.
From Strand Require Proofs.ListAlg.
Import ListNotations.
Open Scope Z_scope.

Section Thr.
  Variable B : Backend.
  Variable mem : E B -> Prop.
  Hypothesis L : Laws B mem.
  Notation q := (b_q B).
  Notation mulp := (b_mulp B).
  Notation pow := (b_pow B).
  Notation gpow := (b_gpow B).
  Notation one := (b_one B).
  Notation nonneg := (fun c : Z => 0 <= c).
  Local Open Scope outcome_scope.

  Hypothesis from_u64_ok : forall v, 0 <= v ->
    0 <= b_from_u64 B v <= v /\ b_from_u64 B v mod q = v mod q.
  Hypothesis sub_mod_ok : forall v o, 0 <= v -> 0 <= o -> o <= v + q ->
    exists d, b_sub_mod B v o = Ok d /\ 0 <= d /\ d mod q = (v - o) mod q.
  Hypothesis xinvq_ok : forall d, 0 <= d -> d mod q <> 0 ->
    exists i, b_xinvq B d = Ok i /\ 0 <= i /\ (d * i) mod q = 1.

  Let Hq : 1 < q := q_gt1 B mem L.

  Lemma rep_from_u64 v : 0 <= v -> rep B (b_from_u64 B v) v.
  Proof. intro Hv. destruct (from_u64_ok v Hv) as [[H0 _] E]. split; assumption. Qed.

  (* the loop bodies of eval_poly, verification_key_factor and lagrange are named in the model's own words:
     the [change] steps below find them there by conversion *)
  Definition ev_step (tt : Z) (sp : Z * Z) (c : Z) : Z * Z :=
    let '(sum, power) := sp in
    let power' := b_xmodq B (b_xmul B power tt) in
    (b_xadd B sum (b_xmodq B (b_xmul B c power')), power').

  (* with the sum standing for s' and the running power for x^k, the fold over coefficients l adds x^(k+1) * l(x) *)
  Lemma ev_fold tt x : rep B tt x ->
    forall l, Forall nonneg l -> forall s s' pw xk, rep B s s' -> rep B pw xk ->
    rep B (fst (fold_left (ev_step tt) l (s, pw))) (s' + xk * x * peval l x).
  Proof.
    intros Ht. induction 1 as [|a l Ha Hl IH]; intros s s' pw xk Hs Hpw; cbn [fold_left].
    - apply (rep_eqm B Hs). rewrite peval_nil, Z.mul_0_r, Z.add_0_r. reflexivity.
    - cbn [ev_step]. pose proof (rep_umul B mem L Hpw Ht) as Hpw'.
      pose proof (rep_xadd B mem L Hs (rep_umul B mem L (rep_refl B a Ha) Hpw')) as Hs'.
      apply (rep_eqm B (IH _ _ _ _ Hs' Hpw')). rewrite peval_cons. unfold eqm. f_equal. ring.
  Qed.

  Theorem eval_poly_spec : forall x t coeffs, 0 <= x -> (1 <= t)%nat -> coeffs <> [] ->
    Forall (fun c => 0 <= c) coeffs ->
    exists s, eval_poly B x t coeffs = Ok s /\ 0 <= s < q /\
              s mod q = peval (firstn t coeffs) x mod q.
  Proof.
    intros x t coeffs Hx Ht Hne Hc. destruct coeffs as [|c0 rest]; [congruence|].
    destruct t as [|t']; [lia|].
    inversion Hc as [|? ? Hc0 Hrest]; subst.
    unfold eval_poly. cbn [firstn skipn].
    change (fold_left _ (firstn t' rest) (c0, 1))
      with (fold_left (ev_step (b_from_u64 B x)) (firstn t' rest) (c0, 1)).
    pose proof (ev_fold _ x (rep_from_u64 x Hx) (firstn t' rest) (ListAlg.Forall_firstn' _ t' rest Hrest)
                  c0 c0 1 1 (rep_refl B c0 Hc0) (rep_refl B 1 ltac:(lia))) as Hf.
    destruct (fold_left (ev_step (b_from_u64 B x)) (firstn t' rest) (c0, 1)) as [sum pw]. cbn [fst] in Hf.
    exists (b_xmodq B sum). split; [reflexivity|]. split; [apply (xmodq_range B mem L), Hf|].
    destruct (rep_xmodq B mem L Hf) as [_ E]. unfold eqm in E. rewrite E, peval_cons. f_equal. ring.
  Qed.

  Definition vk_step (tt : Z) (ap : E B * Z) (c : E B) : E B * Z :=
    let '(accum, power) := ap in (mulp accum (pow c power), b_xmodq B (b_xmul B power tt)).

  Lemma vk_fold tt x : rep B tt x -> 0 <= x ->
    forall l, Forall nonneg l -> forall e pw xk, 0 <= e -> rep B pw xk -> 0 <= xk ->
    fst (fold_left (vk_step tt) (map gpow l) (gpow e, pw)) = gpow (e + xk * peval l x).
  Proof.
    intros Ht Hx. induction 1 as [|a l Ha Hl IH]; intros e pw xk He Hpw Hxk; cbn [map fold_left].
    - cbn [fst]. rewrite peval_nil, Z.mul_0_r, Z.add_0_r. reflexivity.
    - cbn [vk_step]. pose proof Hpw as [Hpw0 Epw].
      rewrite (gpow_pow B mem L), (gpow_add B mem L) by memt.
      rewrite (IH _ _ (xk * x)); [|memt|apply (rep_umul B mem L); assumption|memt].
      pose proof (peval_nonneg l x Hx Hl) as HP.
      rewrite peval_cons. apply (gpow_congr B mem L); [memt..|]. rewrite Epw. unfold eqm. f_equal. ring.
  Qed.

  Theorem feldman_consistent : forall j t coeffs s, 0 <= j -> (1 <= t)%nat -> coeffs <> [] ->
    Forall (fun c => 0 <= c) coeffs ->
    compute_peer_share B j t coeffs = Ok s ->
    b_gpow B s = verification_key_factor B (map (b_gpow B) coeffs) t j.
  Proof.
    intros j t coeffs s Hj Ht Hne Hc Hs. unfold compute_peer_share in Hs.
    destruct (eval_poly_spec (j + 1) t coeffs ltac:(lia) Ht Hne Hc) as (s' & E & Hr & Em).
    rewrite E in Hs. injection Hs as <-.
    unfold verification_key_factor. rewrite firstn_map.
    change (fold_left _ (map (b_gpow B) (firstn t coeffs)) (one, 1))
      with (fold_left (vk_step (b_from_u64 B (j + 1))) (map gpow (firstn t coeffs)) (one, 1)).
    rewrite <- (pow_0 B mem L (b_gen B)) by memt. fold (gpow 0).
    pose proof (ListAlg.Forall_firstn' _ t coeffs Hc) as Hf.
    rewrite (vk_fold _ (j + 1) (rep_from_u64 (j + 1) ltac:(lia)) ltac:(lia) _ Hf 0 1 1)
      by (try apply (rep_refl B); lia).
    pose proof (peval_nonneg (firstn t coeffs) (j + 1) ltac:(lia) Hf) as HP.
    apply (gpow_congr B mem L); [lia|lia|].
    unfold eqm. rewrite Em. f_equal. ring.
  Qed.

  Theorem feldman_detects_tamper : prime q -> b_gen B <> b_one B ->
    forall s d, 0 <= s -> 0 <= d -> d mod q <> 0 -> b_gpow B (s + d) <> b_gpow B s.
  Proof.
    intros Hpr Hg s d Hs Hd Hd0 E. unfold b_gpow in E.
    apply (pow_inj B mem L Hpr) in E; [|memt|exact Hg|lia|lia].
    apply eqm_sub_0 in E. replace (s + d - s) with d in E by ring. exact (Hd0 E).
  Qed.

  Definition lg_step (trustee tt : Z) (acc : outcome (Z * Z)) (p : Z) : outcome (Z * Z) :=
    '(num, den) <- acc ;;
    if p =? trustee then Ok (num, den)
    else
      let pe := b_from_u64 B p in
      d <- b_sub_mod B pe tt ;;
      Ok (b_xmodq B (b_xmul B num pe), b_xmodq B (b_xmul B den (b_xmodq B d))).

  Lemma rep_sub_mod p o : 0 <= p -> 0 <= o < q ->
    exists d, b_sub_mod B (b_from_u64 B p) (b_from_u64 B o) = Ok d /\ rep B d (p - o).
  Proof.
    intros Hp Ho. destruct (from_u64_ok p Hp) as [[Hp0 _] Ep]. destruct (from_u64_ok o) as [[Ho0 Ho1] Eo]; [lia|].
    destruct (sub_mod_ok _ _ Hp0 Ho0 ltac:(lia)) as (d & Ed & Hd0 & Edm).
    exists d. split; [exact Ed|]. split; [exact Hd0|]. unfold eqm. rewrite Edm.
    apply (eqm_sub_Proper q); assumption.
  Qed.

  Lemma lg_fold trustee : 0 <= trustee < q ->
    forall l, Forall (fun x => 0 <= x < q) l -> forall num num0 den den0, rep B num num0 -> rep B den den0 ->
    exists num' den',
      fold_left (lg_step trustee (b_from_u64 B trustee)) l (Ok (num, den)) = Ok (num', den') /\
      rep B num' (num0 * zprod (others trustee l)) /\
      rep B den' (den0 * zprod (map (fun j => j - trustee) (others trustee l))).
  Proof.
    intros Htr. induction 1 as [|p l Hp Hl IH]; intros num num0 den den0 Hn Hd; cbn [fold_left].
    - exists num, den. split; [reflexivity|].
      cbn [others filter map]. rewrite zprod_nil, !Z.mul_1_r. split; assumption.
    - cbn [lg_step bind]. destruct (Z.eqb_spec p trustee) as [->|Hne].
      + rewrite others_cons_eq. apply IH; assumption.
      + rewrite (others_cons_ne trustee p l Hne). cbn [map]. rewrite !zprod_cons, !Z.mul_assoc.
        destruct (rep_sub_mod p trustee ltac:(lia) Htr) as (d & Ed & Hd').
        rewrite Ed. cbn [bind]. apply IH.
        * apply (rep_umul B mem L); [exact Hn|apply rep_from_u64; lia].
        * apply (rep_umul B mem L); [exact Hd|apply (rep_xmodq B mem L); exact Hd'].
  Qed.

  Lemma rep_xdivq {n n' d d'} : rep B n n' -> rep B d d' -> d' mod q <> 0 ->
    exists l, b_xdivq B n d = Ok l /\ 0 <= l /\ eqm q (l * d') n'.
  Proof.
    intros Hn [Hd0 Ed] Hnz. unfold b_xdivq.
    destruct (xinvq_ok d Hd0) as (i & Ei & Hi0 & Hdi); [unfold eqm in Ed; rewrite Ed; exact Hnz|].
    rewrite Ei. cbn [bind].
    destruct (rep_xmul B mem L Hn (rep_refl B i Hi0)) as [Hl0 El].
    exists (b_xmul B n i). split; [reflexivity|]. split; [exact Hl0|].
    assert (Hdi' : eqm q (d * i) 1) by (unfold eqm; rewrite Hdi; symmetry; apply Z.mod_1_l; exact Hq).
    rewrite El, <- Ed, <- Z.mul_assoc, (Z.mul_comm i), Hdi', Z.mul_1_r. reflexivity.
  Qed.

  Theorem lagrange_spec : prime q -> forall trustee present,
    Forall (fun x => 0 <= x < q) present -> NoDup present -> In trustee present ->
    exists lam, lagrange B trustee present = Ok lam /\ 0 <= lam /\
      (lam * zprod (map (fun j => j - trustee) (others trustee present))) mod q
      = zprod (others trustee present) mod q.
  Proof.
    intros Hpr trustee present Hrange Hnd Hin.
    assert (Htr : 0 <= trustee < q) by (rewrite Forall_forall in Hrange; apply Hrange; exact Hin).
    destruct (lg_fold trustee Htr present Hrange 1 1 1 1 (rep_refl B 1 ltac:(lia)) (rep_refl B 1 ltac:(lia)))
      as (num' & den' & Ef & Hn & Hd).
    rewrite Z.mul_1_l in Hn, Hd.
    unfold lagrange.
    change (fold_left _ present (Ok (1, 1)))
      with (fold_left (lg_step trustee (b_from_u64 B trustee)) present (Ok (1, 1))).
    rewrite Ef. cbn [bind fst snd]. apply (rep_xdivq Hn Hd).
    apply (others_diffs_nonzero q trustee present Hpr). intros j Hj Hne.
    rewrite Forall_forall in Hrange. rewrite !Z.mod_small by (apply Hrange; assumption). exact Hne.
  Qed.

  Lemma pos_range l : Forall (fun x => 0 < x < q) l -> Forall (fun x => 0 <= x < q) l.
  Proof. apply Forall_impl. intros a Ha. lia. Qed.

  Theorem lagrange_interpolates : prime q -> forall present cs (lam : Z -> Z),
    Forall (fun x => 0 < x < q) present -> NoDup present -> (length cs <= length present)%nat ->
    (forall i, In i present -> lagrange B i present = Ok (lam i)) ->
    zsum (map (fun i => lam i * peval cs i) present) mod q = nth 0 cs 0 mod q.
  Proof.
    intros Hpr present cs lam Hrange Hnd Hlen Hlam.
    pose proof (pos_range present Hrange) as Hrange'.
    apply (lagrange_at_zero q Hpr present lam).
    - rewrite (ListAlg.map_mod_small q present Hrange'). exact Hnd.
    - intros i Hi. destruct (lagrange_spec Hpr i present Hrange' Hnd Hi) as (l' & E & _ & Hc).
      rewrite (Hlam i Hi) in E. injection E as <-. exact Hc.
    - exact Hlen.
  Qed.

  (* group form: combining the present trustees' decryption factors with the library's coefficients
     gives the factor of the joint secret P(0) *)
  Theorem threshold_factor_combination : prime q ->
    forall present coeffs t (g_r : E B) (lam : Z -> Z) (share : Z -> Z),
    mem g_r -> Forall (fun x => 0 < x < q) present -> NoDup present ->
    (1 <= t)%nat -> (t <= length present)%nat -> coeffs <> [] -> Forall (fun c => 0 <= c) coeffs ->
    (forall i, In i present -> lagrange B i present = Ok (lam i)) ->
    (forall i, In i present -> eval_poly B i t coeffs = Ok (share i)) ->
    prodp B (map (fun i => b_pow B (b_pow B g_r (share i)) (lam i)) present)
    = b_pow B g_r (nth 0 coeffs 0).
  Proof.
    intros Hpr present coeffs t g_r lam share Hg Hrange Hnd Ht Htn Hne Hc Hlam Hsh.
    pose proof (pos_range present Hrange) as Hrange'.
    assert (Hshare : forall i, In i present -> rep B (share i) (peval (firstn t coeffs) i)).
    { intros i Hi. rewrite Forall_forall in Hrange'.
      destruct (eval_poly_spec i t coeffs (proj1 (Hrange' i Hi)) Ht Hne Hc) as (s & E & Hr & Em).
      rewrite (Hsh i Hi) in E. injection E as <-. split; [lia|exact Em]. }
    assert (Hlam0 : forall i, In i present -> 0 <= lam i).
    { intros i Hi. destruct (lagrange_spec Hpr i present Hrange' Hnd Hi) as (l' & E & Hl0 & _).
      rewrite (Hlam i Hi) in E. injection E as <-. exact Hl0. }
    assert (Hprod : Forall nonneg (map (fun i => share i * lam i) present)).
    { apply Forall_map, Forall_forall. intros i Hi.
      pose proof (Hlam0 i Hi). destruct (Hshare i Hi) as [? _]. nia. }
    rewrite (map_ext_in _ (fun i => pow g_r (share i * lam i))).
    2:{ intros i Hi. apply (pow_mul B mem L); [exact Hg|apply Hshare; exact Hi|apply Hlam0; exact Hi]. }
    rewrite <- (map_map (fun i => share i * lam i) (pow g_r)).
    rewrite (ListAlg.prodp_pow B mem L g_r _ Hg Hprod).
    apply (pow_congr B mem L); [exact Hg|exact (ListAlg.zsum_nonneg _ Hprod)|
                                apply ListAlg.Forall_nth_nonneg; exact Hc|].
    unfold eqm. rewrite <- (ListAlg.nth0_firstn t coeffs Ht).
    rewrite <- (lagrange_interpolates Hpr present (firstn t coeffs) lam Hrange Hnd).
    - apply (zsum_map_eqm q). intros i Hi. destruct (Hshare i Hi) as [_ E].
      rewrite E. rewrite Z.mul_comm. reflexivity.
    - rewrite firstn_length. lia.
    - exact Hlam.
  Qed.
End Thr.

Print Assumptions eval_poly_spec.
Print Assumptions feldman_consistent.
Print Assumptions feldman_detects_tamper.
Print Assumptions lagrange_spec.
Print Assumptions lagrange_interpolates.
Print Assumptions threshold_factor_combination.

Section ZBInst.
  Variable K : Kernel.
  Variable fl : flavor.
  Variable P : Params.
  Notation Bz := (ZB K fl P).

  Theorem ZB_from_u64_ok : forall v, 0 <= v ->
    0 <= b_from_u64 Bz v <= v /\ b_from_u64 Bz v mod p_q P = v mod p_q P.
  Proof. intros v Hv. cbn [ZB b_from_u64]. split; [lia|reflexivity]. Qed.

  Lemma ZB_sub_mod_eq : 0 < p_q P -> forall v o,
    b_sub_mod Bz v o = if v + p_q P <? o then Panic else Ok ((v - o) mod p_q P).
  Proof.
    intros Hq v o. cbn [ZB b_sub_mod]. unfold z_sub_mod. rewrite !k_mod_ok.
    destruct (Z.gtb_spec v o) as [Hgt|Hle].
    - replace (v + p_q P <? o) with false by (symmetry; apply Z.ltb_ge; lia). reflexivity.
    - destruct (v + p_q P <? o); [reflexivity|]. f_equal.
      replace (v + p_q P - o) with (v - o + 1 * p_q P) by ring. apply Z_mod_plus_full.
  Qed.

  Theorem ZB_sub_mod_ok : 1 < p_q P -> forall v o, 0 <= v -> 0 <= o -> o <= v + p_q P ->
    exists d, b_sub_mod Bz v o = Ok d /\ 0 <= d /\ d mod p_q P = (v - o) mod p_q P.
  Proof.
    intros Hq v o _ _ Hle. apply Z.ltb_ge in Hle. rewrite ZB_sub_mod_eq, Hle by lia.
    eexists. split; [reflexivity|]. split; [apply Z.mod_pos_bound; lia|]. apply Z.mod_mod; lia.
  Qed.

  Theorem ZB_sub_mod_panics : forall v o, v + p_q P < o -> 0 < p_q P -> b_sub_mod Bz v o = Panic.
  Proof.
    intros v o Hlt Hq. apply Z.ltb_lt in Hlt. rewrite ZB_sub_mod_eq, Hlt by exact Hq. reflexivity.
  Qed.

  Theorem ZB_xinvq_ok : prime (p_q P) -> forall d, 0 <= d -> d mod p_q P <> 0 ->
    exists i, b_xinvq Bz d = Ok i /\ 0 <= i /\ (d * i) mod p_q P = 1.
  Proof.
    intros Hpr d _ Hd. cbn [ZB b_xinvq]. unfold z_inv. rewrite k_invm_ok.
    destruct (invm_prime d (p_q P) Hpr Hd) as (r & E & Hr & Hm). rewrite E.
    exists r. split; [reflexivity|]. split; [lia|exact Hm].
  Qed.
End ZBInst.

Section ZBThr.
  Variable K : Kernel.
  Variable fl : flavor.
  Variable P : Params.
  Notation Bz := (ZB K fl P).
  Notation q := (p_q P).

  Section Good.
    Hypothesis G : GoodParams P.

    Theorem eval_poly_spec_ZB : forall x t coeffs,
      0 <= x -> (1 <= t)%nat -> coeffs <> [] -> Forall (fun c => 0 <= c) coeffs ->
      exists s, eval_poly Bz x t coeffs = Ok s /\ 0 <= s < q /\ s mod q = peval (firstn t coeffs) x mod q.
    Proof. exact (eval_poly_spec Bz (member P) (ZB_laws K fl P G) (ZB_from_u64_ok K fl P)). Qed.

    Theorem feldman_consistent_ZB : forall j t coeffs s,
      0 <= j -> (1 <= t)%nat -> coeffs <> [] -> Forall (fun c => 0 <= c) coeffs ->
      compute_peer_share Bz j t coeffs = Ok s ->
      b_gpow Bz s = verification_key_factor Bz (map (b_gpow Bz) coeffs) t j.
    Proof. exact (feldman_consistent Bz (member P) (ZB_laws K fl P G) (ZB_from_u64_ok K fl P)). Qed.
  End Good.

  Hypothesis S : SafePrime P.
  Let L : Laws Bz (member P) := ZB_laws K fl P (sp_good P S).
  Let Hq : prime q := sp_q P S.
  Let Hsub := ZB_sub_mod_ok K fl P (gp_q P (sp_good P S)).
  Let Hinv := ZB_xinvq_ok K fl P Hq.

  Theorem feldman_detects_tamper_ZB : forall s d, 0 <= s -> 0 <= d -> d mod q <> 0 ->
    b_gpow Bz (s + d) <> b_gpow Bz s.
  Proof. exact (feldman_detects_tamper Bz (member P) L Hq (sp_g1 P S)). Qed.

  Theorem lagrange_spec_ZB : forall trustee present,
    Forall (fun x => 0 <= x < q) present -> NoDup present -> In trustee present ->
    exists lam, lagrange Bz trustee present = Ok lam /\ 0 <= lam /\
      (lam * zprod (map (fun j => j - trustee) (others trustee present))) mod q
      = zprod (others trustee present) mod q.
  Proof. exact (lagrange_spec Bz (member P) L (ZB_from_u64_ok K fl P) Hsub Hinv Hq). Qed.

  Theorem lagrange_interpolates_ZB : forall present cs (lam : Z -> Z),
    Forall (fun x => 0 < x < q) present -> NoDup present -> (length cs <= length present)%nat ->
    (forall i, In i present -> lagrange Bz i present = Ok (lam i)) ->
    zsum (map (fun i => lam i * peval cs i) present) mod q = nth 0 cs 0 mod q.
  Proof. exact (lagrange_interpolates Bz (member P) L (ZB_from_u64_ok K fl P) Hsub Hinv Hq). Qed.

  Theorem threshold_factor_combination_ZB :
    forall present coeffs t (g_r : Z) (lam : Z -> Z) (share : Z -> Z),
    member P g_r -> Forall (fun x => 0 < x < q) present -> NoDup present ->
    (1 <= t)%nat -> (t <= length present)%nat -> coeffs <> [] -> Forall (fun c => 0 <= c) coeffs ->
    (forall i, In i present -> lagrange Bz i present = Ok (lam i)) ->
    (forall i, In i present -> eval_poly Bz i t coeffs = Ok (share i)) ->
    prodp Bz (map (fun i => b_pow Bz (b_pow Bz g_r (share i)) (lam i)) present) = b_pow Bz g_r (nth 0 coeffs 0).
  Proof. exact (threshold_factor_combination Bz (member P) L (ZB_from_u64_ok K fl P) Hsub Hinv Hq). Qed.
End ZBThr.

Print Assumptions ZB_from_u64_ok.
Print Assumptions ZB_sub_mod_ok.
Print Assumptions ZB_xinvq_ok.
Print Assumptions eval_poly_spec_ZB.
Print Assumptions feldman_consistent_ZB.
Print Assumptions feldman_detects_tamper_ZB.
Print Assumptions lagrange_spec_ZB.
Print Assumptions lagrange_interpolates_ZB.
Print Assumptions threshold_factor_combination_ZB.
