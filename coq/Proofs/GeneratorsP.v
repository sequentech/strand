(* Proofs/GeneratorsP.v — the FIPS 186-4 A.2.3 style generator derivation of Model/ZBackend.v
   (gen_try / generators_from / generators): prefix stability, length, per-index independence, validity
   (members of the order-q subgroup, >= 2), never Err, and the documented shape of the hashed buffer.
   [sha512] is treated as an arbitrary function bytes -> bytes: nothing here unfolds it (except the
   kernel-computed examples at the end). *)
From Coq Require Import ZArith List Lia.
(* exported for [nodupb] and [nodupb_sound], by which the closed runs here and in Properties/C17.v decide distinctness *)
From Strand Require Export Base.Pocklington.
From Strand Require Import Base.ZUtil Base.Fermat Model.Outcome Model.Codec Model.Sha512
  Model.ZBackend Proofs.CodecP Proofs.ZLaws Proofs.ZInst.
Import ListNotations.
Open Scope Z_scope.

(* the bytes appended by retries count+1 .. count+n for one index *)
Definition cnt_bytes (index count : Z) (n : nat) : bytes :=
  flat_map (fun k => u64le index ++ u64le k) (map (fun j => count + Z.of_nat j) (seq 1 n)).

Lemma cnt_bytes_0 index count : cnt_bytes index count 0 = [].
Proof. reflexivity. Qed.

Lemma cnt_bytes_S index count n :
  cnt_bytes index count (S n) = (u64le index ++ u64le (count + 1)) ++ cnt_bytes index (count + 1) n.
Proof.
  unfold cnt_bytes.
  change (seq 1 (S n)) with (1%nat :: seq 2 n).
  rewrite <- (seq_shift n 1).
  rewrite map_cons, map_map. cbn [flat_map].
  change (Z.of_nat 1) with 1.
  f_equal. f_equal.
  apply map_ext. intro j. lia.
Qed.

Lemma cnt_bytes_shift buf index count n :
  buf ++ cnt_bytes index count (S n) = (buf ++ u64le index ++ u64le (count + 1)) ++ cnt_bytes index (count + 1) n.
Proof. rewrite cnt_bytes_S, <- !app_assoc. reflexivity. Qed.

Section Gen.
  Variable K : Kernel.
  Variable fl : flavor.
  Variable P : Params.
  Notation p := (p_p P).
  Notation q := (p_q P).

  Definition gen_cand (buf : bytes) : Z := k_powm K (z_hash_to_element K fl P buf) (p_cof P) p.

  Lemma gen_try_O buf index count : gen_try K fl P 0 buf index count = Panic.
  Proof. reflexivity. Qed.

  Lemma gen_try_S f buf index count :
    gen_try K fl P (S f) buf index count =
    if gen_cand (buf ++ u64le index ++ u64le (count + 1)) >=? 2
    then Ok (gen_cand (buf ++ u64le index ++ u64le (count + 1)), buf ++ u64le index ++ u64le (count + 1))
    else gen_try K fl P f (buf ++ u64le index ++ u64le (count + 1)) index (count + 1).
  Proof. reflexivity. Qed.

  Lemma gf_O pre idx : generators_from K fl P 0 pre idx = Ok [].
  Proof. reflexivity. Qed.

  Lemma gf_S n pre idx :
    generators_from K fl P (S n) pre idx =
    match gen_try K fl P 64 pre (idx + 1) 0 with
    | Ok (g, _) => match generators_from K fl P n pre (idx + 1) with
                   | Ok l => Ok (g :: l) | Err => Err | Panic => Panic end
    | Err => Err | Panic => Panic
    end.
  Proof. reflexivity. Qed.

  Lemma gf_S_inv n pre idx l :
    generators_from K fl P (S n) pre idx = Ok l ->
    exists g buf l', gen_try K fl P 64 pre (idx + 1) 0 = Ok (g, buf) /\
                     generators_from K fl P n pre (idx + 1) = Ok l' /\ l = g :: l'.
  Proof.
    rewrite gf_S. intro H.
    destruct (gen_try K fl P 64 pre (idx + 1) 0) as [[g buf]| |]; try discriminate.
    destruct (generators_from K fl P n pre (idx + 1)) as [l'| |]; try discriminate.
    injection H as <-. exists g, buf, l'. repeat split.
  Qed.

  Lemma gen_try_not_err fuel : forall buf index count, gen_try K fl P fuel buf index count <> Err.
  Proof.
    induction fuel as [|f IH]; intros buf index count.
    - rewrite gen_try_O. discriminate.
    - rewrite gen_try_S.
      destruct (gen_cand (buf ++ u64le index ++ u64le (count + 1)) >=? 2).
      + discriminate.
      + apply IH.
  Qed.

  Lemma gf_not_err n : forall pre idx, generators_from K fl P n pre idx <> Err.
  Proof.
    induction n as [|n IH]; intros pre idx.
    - rewrite gf_O. discriminate.
    - rewrite gf_S.
      pose proof (gen_try_not_err 64 pre (idx + 1) 0) as Hg.
      destruct (gen_try K fl P 64 pre (idx + 1) 0) as [[g buf]| |]; [|contradiction|discriminate].
      pose proof (IH pre (idx + 1)) as Hr.
      destruct (generators_from K fl P n pre (idx + 1)) as [l'| |]; [discriminate|contradiction|discriminate].
  Qed.

  Lemma gen_try_core fuel : forall buf index count g buf',
    gen_try K fl P fuel buf index count = Ok (g, buf') ->
    exists m : nat, (1 <= m <= fuel)%nat /\
      buf' = buf ++ cnt_bytes index count m /\
      g = gen_cand buf' /\ 2 <= g /\
      (forall j : nat, (1 <= j < m)%nat -> gen_cand (buf ++ cnt_bytes index count j) < 2).
  Proof.
    induction fuel as [|f IH]; intros buf index count g buf' H.
    - rewrite gen_try_O in H. discriminate.
    - rewrite gen_try_S in H.
      destruct (gen_cand (buf ++ u64le index ++ u64le (count + 1)) >=? 2) eqn:Hc.
      + injection H as <- <-. exists 1%nat.
        rewrite cnt_bytes_shift, cnt_bytes_0, app_nil_r. apply Z.geb_le in Hc.
        split; [lia|]. split; [reflexivity|]. split; [reflexivity|]. split; [exact Hc|].
        intros j Hj. lia.
      + apply IH in H as (m & Hm & Hbuf & Hg & Hg2 & Hrej).
        exists (S m). rewrite cnt_bytes_shift.
        split; [lia|]. split; [exact Hbuf|]. split; [exact Hg|]. split; [exact Hg2|].
        intros [|[|j]] Hj; [lia| |]; rewrite cnt_bytes_shift.
        * rewrite cnt_bytes_0, app_nil_r. rewrite Z.geb_leb in Hc. apply Z.leb_gt, Hc.
        * apply Hrej. lia.
  Qed.

  Lemma gen_cand_spec buf : p <> 0 -> gen_cand buf = (z_hash_to_element K fl P buf) ^ (p_cof P) mod p.
  Proof. intro Hp. unfold gen_cand. rewrite k_powm_ok, powm_spec by exact Hp. reflexivity. Qed.

  Lemma gf_length n : forall pre idx l, generators_from K fl P n pre idx = Ok l -> length l = n.
  Proof.
    induction n as [|n IH]; intros pre idx l H.
    - rewrite gf_O in H. injection H as <-. reflexivity.
    - apply gf_S_inv in H. destruct H as [g [buf [l' [_ [Hr ->]]]]].
      cbn [length]. f_equal. eapply IH. exact Hr.
  Qed.

  Lemma gf_prefix n : forall k pre idx l, (k <= n)%nat ->
    generators_from K fl P n pre idx = Ok l -> generators_from K fl P k pre idx = Ok (firstn k l).
  Proof.
    induction n as [|n IH]; intros k pre idx l Hk H.
    - assert (k = 0)%nat as -> by lia. rewrite gf_O. reflexivity.
    - destruct k as [|k]; [rewrite gf_O; reflexivity|].
      apply gf_S_inv in H. destruct H as [g [buf [l' [Hg [Hr ->]]]]].
      rewrite gf_S, Hg. rewrite (IH k pre (idx + 1) l' ltac:(lia) Hr).
      reflexivity.
  Qed.

  Lemma gf_nth n : forall pre idx l i, generators_from K fl P n pre idx = Ok l -> (i < n)%nat ->
    exists g buf, gen_try K fl P 64 pre (idx + Z.of_nat i + 1) 0 = Ok (g, buf) /\ nth_error l i = Some g.
  Proof.
    induction n as [|n IH]; intros pre idx l i H Hi; [lia|].
    apply gf_S_inv in H. destruct H as [g [buf [l' [Hg [Hr ->]]]]].
    destruct i as [|i].
    - exists g, buf. split; [|reflexivity].
      replace (idx + Z.of_nat 0 + 1) with (idx + 1) by lia. exact Hg.
    - destruct (IH pre (idx + 1) l' i Hr ltac:(lia)) as [g' [buf' [Hg' Hn]]].
      exists g', buf'. split; [|exact Hn].
      replace (idx + Z.of_nat (S i) + 1) with (idx + 1 + Z.of_nat i + 1) by lia. exact Hg'.
  Qed.

  Lemma gen_cand_member buf : SafePrime P -> 2 <= gen_cand buf -> member P (gen_cand buf).
  Proof.
    intros S Hge.
    pose proof (sp_good P S) as G. pose proof (gp_p P G) as Hp. pose proof (gp_q P G) as Hq.
    rewrite gen_cand_spec in * by lia. rewrite (sp_cof P S) in *.
    set (e := z_hash_to_element K fl P buf) in *.
    split.
    - pose proof (Z.mod_pos_bound (e ^ 2) p ltac:(lia)). lia.
    - apply square_member; [exact (sp_p P S)|exact (sp_rel P S)|].
      intros [c Hc].
      assert (Hz : e ^ 2 mod p = 0).
      { rewrite Hc. replace ((c * p) ^ 2) with ((c * c * p) * p) by ring. apply Z_mod_mult. }
      lia.
  Qed.

  Lemma gen_try_valid fuel buf index count g buf' : SafePrime P ->
    gen_try K fl P fuel buf index count = Ok (g, buf') -> member P g /\ 2 <= g.
  Proof.
    intros S H. apply gen_try_core in H. destruct H as [m [_ [_ [Hg [Hg2 _]]]]].
    split; [|exact Hg2]. rewrite Hg. apply gen_cand_member; [exact S|]. rewrite <- Hg. exact Hg2.
  Qed.

  Lemma gf_valid n : SafePrime P -> forall pre idx l, generators_from K fl P n pre idx = Ok l ->
    Forall (fun g => member P g /\ 2 <= g) l.
  Proof.
    intro S. induction n as [|n IH]; intros pre idx l H.
    - rewrite gf_O in H. injection H as <-. constructor.
    - apply gf_S_inv in H. destruct H as [g [buf [l' [Hg [Hr ->]]]]].
      constructor; [eapply gen_try_valid; eassumption|eapply IH; exact Hr].
  Qed.

  (* the candidate as a function of the SHA-512 digest of the buffer, the big-endian reading of the malachite flavor
     in the form be_int d = le_int (rev d) (CodecP.be_int_le_int): the closed runs below evaluate this form *)
  Definition of_digest (d : bytes) : Z :=
    k_powm K (k_mod K (match fl with Bigint => le_int d | Malachite => le_int (rev d) end) p) (p_cof P) p.

  Lemma gen_cand_digest buf : gen_cand buf = of_digest (sha512 buf).
  Proof.
    unfold gen_cand, z_hash_to_element, int_of_bytes, of_digest. destruct fl; [reflexivity|].
    rewrite be_int_le_int. reflexivity.
  Qed.

  (* [generators_from] with the digest of the first buffer of each index supplied by the caller; 63 further retries
     make up the 64 that generators_from (Model/ZBackend.v) allows per index *)
  Fixpoint gf_with (ds : list bytes) (pre : bytes) (index : Z) : outcome (list Z) :=
    match ds with
    | [] => Ok []
    | d :: ds' =>
        let b := pre ++ u64le (index + 1) ++ u64le 1 in
        match (if of_digest d >=? 2 then Ok (of_digest d, b) else gen_try K fl P 63 b (index + 1) 1) with
        | Ok (g, _) => match gf_with ds' pre (index + 1) with
                       | Ok l => Ok (g :: l) | Err => Err | Panic => Panic end
        | Err => Err | Panic => Panic
        end
    end.

  Lemma gf_with_digests pre n : forall k,
    gf_with (map (fun i => sha512 (pre ++ u64le (Z.of_nat i) ++ u64le 1)) (seq (S k) n)) pre (Z.of_nat k)
    = generators_from K fl P n pre (Z.of_nat k).
  Proof.
    induction n as [|n IH]; intro k; [reflexivity|].
    cbn [seq map gf_with]. rewrite gf_S, (gen_try_S 63 pre), !gen_cand_digest. change (0 + 1) with 1.
    replace (Z.of_nat k + 1) with (Z.of_nat (S k)) by lia. rewrite IH. reflexivity.
  Qed.
End Gen.

Theorem generators_prefix_stable : forall K fl P (n k : nat) seed l, (k <= n)%nat ->
  generators K fl P n seed = Ok l -> generators K fl P k seed = Ok (firstn k l).
Proof. intros K fl P n k seed l Hk H. unfold generators in *. eapply gf_prefix; eassumption. Qed.
Print Assumptions generators_prefix_stable.

Theorem generators_length : forall K fl P n seed l, generators K fl P n seed = Ok l -> length l = n.
Proof. intros K fl P n seed l H. unfold generators in H. eapply gf_length; exact H. Qed.
Print Assumptions generators_length.

(* the i-th generator depends only on (seed, i): it is gen_try on the prefix with index i+1 *)
Theorem generators_nth : forall K fl P n seed l i, generators K fl P n seed = Ok l -> (i < n)%nat ->
  exists g buf, gen_try K fl P 64 (seed ++ [103; 103; 101; 110]) (Z.of_nat i + 1) 0 = Ok (g, buf) /\ nth_error l i = Some g.
Proof.
  intros K fl P n seed l i H Hi. unfold generators in H.
  destruct (gf_nth K fl P n _ _ l i H Hi) as [g [buf [Hg Hn]]].
  exists g, buf. split; [|exact Hn]. rewrite Z.add_0_l in Hg. exact Hg.
Qed.
Print Assumptions generators_nth.

Theorem generators_valid : forall K fl P, SafePrime P -> forall n seed l,
  generators K fl P n seed = Ok l -> Forall (fun g => member P g /\ 2 <= g) l.
Proof. intros K fl P S n seed l H. unfold generators in H. eapply gf_valid; eassumption. Qed.
Print Assumptions generators_valid.

(* the one way to fail is Panic, the model's bound on retries running out *)
Theorem generators_not_err : forall K fl P n seed, generators K fl P n seed <> Err.
Proof. intros K fl P n seed. unfold generators. apply gf_not_err. Qed.
Print Assumptions generators_not_err.

(* documented derivation. The accepted g is (int(SHA512(buf')) mod p)^cofactor mod p where buf' is the input
   buffer followed by the (index, k) pairs for k = count+1 .. c (c > count); g >= 2; and every earlier retry
   (buffer ending at the pair for c', count < c' < c) produced a candidate < 2 and was rejected. *)
Theorem gen_try_spec : forall K fl P, p_p P <> 0 -> forall fuel buf index count g buf',
  gen_try K fl P fuel buf index count = Ok (g, buf') ->
  exists c, count < c <= count + Z.of_nat fuel /\
    buf' = buf ++ flat_map (fun k => u64le index ++ u64le k)
                           (map (fun j => count + Z.of_nat j) (seq 1 (Z.to_nat (c - count)))) /\
    g = (z_hash_to_element K fl P buf') ^ (p_cof P) mod p_p P /\ 2 <= g /\
    (forall c', count < c' < c ->
       (z_hash_to_element K fl P
          (buf ++ flat_map (fun k => u64le index ++ u64le k)
                           (map (fun j => count + Z.of_nat j) (seq 1 (Z.to_nat (c' - count))))))
       ^ (p_cof P) mod p_p P < 2).
Proof.
  intros K fl P Hp fuel buf index count g buf' H.
  apply gen_try_core in H. destruct H as [m [Hm [Hbuf [Hg [Hg2 Hrej]]]]].
  exists (count + Z.of_nat m).
  replace (count + Z.of_nat m - count) with (Z.of_nat m) by lia. rewrite Nat2Z.id.
  split; [lia|]. split; [exact Hbuf|]. split; [rewrite Hg; apply gen_cand_spec; exact Hp|].
  split; [exact Hg2|].
  intros c' Hc'. rewrite <- gen_cand_spec by exact Hp.
  specialize (Hrej (Z.to_nat (c' - count)) ltac:(lia)). exact Hrej.
Qed.
Print Assumptions gen_try_spec.

(* the same, with the nat retry counter and [cnt_bytes] (no hypothesis on p: stated on the kernel call) *)
Theorem gen_try_spec_nat : forall K fl P fuel buf index count g buf',
  gen_try K fl P fuel buf index count = Ok (g, buf') ->
  exists m : nat, (1 <= m <= fuel)%nat /\
    buf' = buf ++ cnt_bytes index count m /\
    g = k_powm K (z_hash_to_element K fl P buf') (p_cof P) (p_p P) /\ 2 <= g /\
    (forall j : nat, (1 <= j < m)%nat ->
       k_powm K (z_hash_to_element K fl P (buf ++ cnt_bytes index count j)) (p_cof P) (p_p P) < 2).
Proof. intros K fl P fuel buf index count g buf' H. apply gen_try_core in H. exact H. Qed.
Print Assumptions gen_try_spec_nat.

Definition P2039 : Params := {| p_p := 2039; p_q := 1019; p_g := 4; p_cof := 2 |}.

Definition gens50_bigint : list Z :=
  [271; 1856; 1350; 1606; 1619; 1603; 727; 917; 580; 1838; 809; 1998;
   318; 256; 1240; 833; 661; 921; 318; 808; 1645; 1334; 680; 1645; 1922;
   841; 1116; 596; 1127; 1973; 1600; 454; 1455; 370; 1696; 1068; 1590;
   48; 1420; 1829; 983; 271; 885; 411; 908; 1747; 1155; 1840; 1068; 1165].

Definition gens50_malachite : list Z :=
  [1258; 1233; 267; 1097; 1717; 1110; 106; 546; 360; 809; 1309; 1820;
   1494; 1742; 1147; 1899; 273; 167; 1657; 136; 885; 710; 1352; 1898;
   287; 1674; 1409; 552; 174; 1350; 1638; 215; 1700; 1088; 640; 1125;
   1091; 427; 533; 1605; 645; 1969; 664; 180; 715; 722; 1597; 877; 938; 1661].

(* The two flavors hash the same buffers (seed, "ggen", index, retry counter 1) unless a first candidate is
   rejected, and differ in how a digest is read as an integer: the 50 first digests are computed once, here. *)
Definition digests50 : list bytes :=
  Eval vm_compute in map (fun i => sha512 ([103; 103; 101; 110] ++ u64le (Z.of_nat i) ++ u64le 1)) (seq 1 50).

Lemma digests50_ok :
  digests50 = map (fun i => sha512 ([103; 103; 101; 110] ++ u64le (Z.of_nat i) ++ u64le 1)) (seq 1 50).
Proof. vm_compute. reflexivity. Qed.

Lemma map_seq_firstn {A} (f : nat -> A) n : forall a m, (n <= m)%nat -> map f (seq a n) = firstn n (map f (seq a m)).
Proof.
  induction n as [|n IH]; intros a [|m] H; try reflexivity; [lia|].
  cbn [seq map firstn]. f_equal. apply IH. lia.
Qed.

(* derivations of up to 50 generators from the empty seed read a prefix of these digests: the count and the seed are
   those of the test vectors below and of the closed run in Properties/C17.v *)
Lemma generators_digests50 K fl P n : (n <= 50)%nat ->
  generators K fl P n [] = gf_with K fl P (firstn n digests50) [103; 103; 101; 110] 0.
Proof.
  intro Hn. unfold generators. cbn [app]. rewrite <- (gf_with_digests K fl P _ n 0).
  rewrite (map_seq_firstn _ n 1 50 Hn), <- digests50_ok. reflexivity.
Qed.

Example gens50_bigint_ok : generators K_ref Bigint P2039 50 [] = Ok gens50_bigint.
Proof. rewrite generators_digests50 by lia. vm_compute. reflexivity. Qed.

Example gens50_malachite_ok : generators K_ref Malachite P2039 50 [] = Ok gens50_malachite.
Proof. rewrite generators_digests50 by lia. vm_compute. reflexivity. Qed.

Example gens50_malachite_nodup : forall l, generators K_ref Malachite P2039 50 [] = Ok l -> NoDup l.
Proof.
  intros l H. rewrite gens50_malachite_ok in H. injection H as <-.
  apply nodupb_sound. vm_compute. reflexivity.
Qed.

(* Not pairwise distinct in the bigint flavor: the generators with index 13 and 19 (positions 12 and 18) are both 318
   (also 271 at positions 0/41, 1645 at 20/23, 1068 at 35/48). The subgroup has only 1019 elements, so a
   collision among 50 hash-derived elements is the expected birthday behaviour, not a defect of the derivation. *)
Example gens50_bigint_collision : forall l, generators K_ref Bigint P2039 50 [] = Ok l ->
  nth_error l 12 = Some 318 /\ nth_error l 18 = Some 318.
Proof.
  intros l H. rewrite gens50_bigint_ok in H. injection H as <-. split; reflexivity.
Qed.

Example gens50_bigint_not_nodup : forall l, generators K_ref Bigint P2039 50 [] = Ok l -> ~ NoDup l.
Proof.
  intros l H Hnd. pose proof (generators_length _ _ _ _ _ _ H) as Hlen.
  destruct (gens50_bigint_collision l H) as [H12 H18].
  rewrite NoDup_nth_error in Hnd.
  specialize (Hnd 12%nat 18%nat ltac:(lia) ltac:(congruence)). discriminate.
Qed.

(* the longest duplicate-free prefix in the bigint flavor has 18 elements *)
Example gens18_bigint_nodup : forall l, generators K_ref Bigint P2039 18 [] = Ok l -> NoDup l.
Proof.
  intros l H.
  rewrite (generators_prefix_stable _ _ _ 50 18 [] _ ltac:(lia) gens50_bigint_ok) in H. injection H as <-.
  apply nodupb_sound. vm_compute. reflexivity.
Qed.

Example gens50_not_g : forall fl l, generators K_ref fl P2039 50 [] = Ok l -> ~ In (p_g P2039) l.
Proof.
  intros fl l H Hin.
  assert (existsb (Z.eqb (p_g P2039)) l = true) as E.
  { apply existsb_exists. exists (p_g P2039). split; [exact Hin|apply Z.eqb_refl]. }
  destruct fl.
  - rewrite gens50_bigint_ok in H. injection H as <-. vm_compute in E. discriminate.
  - rewrite gens50_malachite_ok in H. injection H as <-. vm_compute in E. discriminate.
Qed.

Example P2039_safe : SafePrime P2039.
Proof. apply safe_prime_check_sound. vm_compute. reflexivity. Qed.

Example gens50_valid : forall fl l, generators K_ref fl P2039 50 [] = Ok l ->
  Forall (fun g => member P2039 g /\ 2 <= g) l.
Proof. intros fl l H. eapply generators_valid; [exact P2039_safe|exact H]. Qed.

Print Assumptions gens50_malachite_nodup.
Print Assumptions gens50_bigint_not_nodup.
Print Assumptions gens18_bigint_nodup.
Print Assumptions gens50_not_g.
Print Assumptions gens50_valid.
