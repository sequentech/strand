(* Proofs/EdwardsBackend.v — the prime-order subgroup of the curve25519 Edwards curve as a [Backend] with
   Leibniz equality: carrier = affine points over GF(2^255-19), operations = the affine group law of
   Base/Edwards.v, exponents = the scalar ring of the ristretto backend (Model/Ristretto.v). It satisfies the
   [Laws] record WITHOUT hypotheses, so every generic protocol theorem (ElGamal, sigma proofs, shuffle
   completeness, n-of-n and threshold decryption) applies to it. It is tied to the executable ristretto backend
   record RB (extended coordinates) by [aff] (rb_ab_morphism): generator and unit correspond; product, inverse and
   power of valid points are valid and commute with [aff]; equality of images in AB implies RB's own equality (not
   the converse: RB identifies points that differ by 4-torsion); the exponent operations b_xadd and b_xmul and the
   hash to exponents are the same functions. b_xmodq is NOT the same, on purpose: RB's is the identity, because the
   model's scalars are always reduced, while the [Laws] record asks xmodq_ok of arbitrary integers, so AB's is
   [smod]; the two agree on reduced scalars. The other exponent operations (xsub, xinvq, sub_mod, from_u64) are the
   same terms in both records and are not part of the statement. What the morphism does not cover either is the byte
   serialisation (RFC 9496 ENCODE), which only feeds the Fiat-Shamir hash — and the completeness theorems hold for
   every hash function and every serialiser. *)
From Coq Require Import ZArith Znumtheory List.
From Strand Require Import Base.ZUtil Base.Fermat Base.ZpField Model.Outcome Model.Backend
  Model.Ristretto Model.RistrettoFast Model.RBackend Proofs.PrimeCerts Proofs.Laws Proofs.RistrettoGroup.
Import ListNotations.
Open Scope Z_scope.

Section AB.
  Variable K : Kernel.
  Variable PM : PMul.

  Definition apt : Type := (Fp * Fp)%type.

  Definition apt_eqb (a b : apt) : bool :=
    if F_dec (fst a) (fst b) then (if F_dec (snd a) (snd b) then true else false) else false.

  (* a representative in extended coordinates, for serialisation only *)
  Definition rep (a : apt) : point :=
    {| px := zv fp (fst a); py := zv fp (snd a); pz := 1; pt := zv fp (fm (fst a) (snd a)) |}.

  Definition AB : Backend := {|
    E := apt;
    b_q := ell;
    b_gen := aff (pt_base K);
    b_one := eid;
    b_mul := eadd;
    b_modp := fun a => a;
    b_invp := fun a => Ok (eneg a);
    b_pow := fun a x => nmul (Z.to_nat x) a;
    b_eqb := apt_eqb;
    b_xadd := sc_add K;
    b_xmul := sc_mul K;
    b_xsub := fun a b => Ok (sc_sub K a b);
    b_xmodq := smod K;
    b_xinvq := fun a => Ok (sc_invert K a);
    b_sub_mod := fun a b => Ok (sc_sub K a b);
    b_from_u64 := fun v => smod K v;
    b_ser_e := fun a => compress K (rep a);
    b_ser_x := sc_to_bytes;
    b_hash_to_exp := r_hash_to_exp K
  |}.

  (* members: curve points of order dividing l ([ord_l] of Proofs/RistrettoGroup.v, under the name the theorems over
     [Laws AB memA] are read with) *)
  Definition memA (a : apt) : Prop := onc a /\ nmul Ln a = eid.

  Lemma Ln_pos : (Ln <> 0)%nat.
  Proof. exact Ln_nz. Qed.

  Lemma memA_id : memA eid.
  Proof. split; [exact E_onc_id | apply E_nmul_eid]. Qed.

  Lemma memA_add a b : memA a -> memA b -> memA (eadd a b).
  Proof.
    intros [Ca Ha] [Cb Hb]. split; [now apply E_onc|].
    rewrite E_nmul_eadd by assumption. rewrite Ha, Hb. apply E_id_l.
  Qed.

  Lemma memA_nmul n a : memA a -> memA (nmul n a).
  Proof.
    intros [Ca Ha]. split; [now apply E_nmul_onc | now apply E_nmul_order].
  Qed.

  Lemma memA_neg a : memA a -> memA (eneg a).
  Proof.
    intros [Ca Ha]. split; [now apply E_onc_neg|].
    rewrite (E_nmul_eneg _ _ Ca), Ha. unfold Edwards.eneg, Edwards.eid. f_equal; ring.
  Qed.

  Lemma apt_eqb_spec a b : apt_eqb a b = true <-> a = b.
  Proof.
    unfold apt_eqb. destruct a as [a1 a2], b as [b1 b2]. cbn [fst snd].
    destruct (F_dec a1 b1) as [E1|N1]; [destruct (F_dec a2 b2) as [E2|N2]|]; split; intro H;
      try discriminate; try (subst; reflexivity); try (inversion H; contradiction).
  Qed.

  Lemma smod_ok a : 0 <= smod K a /\ smod K a mod ell = a mod ell.
  Proof. split; [apply smod_range | rewrite smod_spec; apply Z.mod_mod; discriminate]. Qed.

  Theorem AB_laws : Laws AB memA.
  Proof.
    constructor; cbn [E b_q b_gen b_one b_mul b_modp b_invp b_pow b_eqb b_xadd b_xmul b_xmodq b_hash_to_exp AB b_mulp].
    - (* q_gt1 *) reflexivity.
    - (* mem_one *) exact memA_id.
    - (* mem_gen *) exact (ord_l_base K).
    - (* mem_mulp *) exact memA_add.
    - (* modp_mem *) reflexivity.
    - (* modp_mul_l *) reflexivity.
    - (* modp_mul_r *) reflexivity.
    - (* mulp_comm *) intros a b _ _. apply E_comm.
    - (* mulp_assoc *) intros a b c [Ca _] [Cb _] [Cc _]. now apply E_assoc.
    - (* mulp_one_l *) intros a _. apply E_id_l.
    - (* invp_ok *) intros a Ha. exists (eneg a). split; [reflexivity|]. split; [now apply memA_neg|]. apply E_neg_r, Ha.
    - (* pow_mem *) intros a x Ha _. now apply memA_nmul.
    - (* pow_0 *) reflexivity.
    - (* pow_1 *) intros a _. apply E_id_r.
    - (* pow_one *) intros x _. apply E_nmul_eid.
    - (* pow_add *) intros a x y [Ca _] Hx Hy. rewrite Z2Nat.inj_add by assumption. now apply E_nmul_add.
    - (* pow_mul *) intros a x y [Ca _] Hx Hy. rewrite Z2Nat.inj_mul by assumption. rewrite Nat.mul_comm. symmetry. now apply E_nmul_mul.
    - (* pow_mulp *) intros a b x [Ca _] [Cb _] _. now apply E_nmul_eadd.
    - (* pow_q *) intros a [_ Ha]. exact Ha.
    - (* eqb_spec *) intros a b _ _. apply apt_eqb_spec.
    - (* xadd_ok *) intros x y _ _. apply smod_ok.
    - (* xmul_ok *) intros x y _ _. unfold sc_mul. rewrite <- (k_mul_ok K x y). apply smod_ok.
    - (* xmodq_ok *) intros x _. apply smod_spec.
    - (* hash_range *) intro bs. apply smod_range.
  Qed.

  (* what the threshold theorems ask of the exponents (l is prime: Proofs/PrimeCerts.v) *)
  Lemma AB_from_u64_ok : forall v, 0 <= v -> 0 <= b_from_u64 AB v <= v /\ b_from_u64 AB v mod b_q AB = v mod b_q AB.
  Proof.
    intros v Hv. cbn [b_from_u64 b_q AB]. split; [|apply smod_ok].
    split; [apply smod_range | rewrite smod_spec; apply Z.mod_le; [exact Hv|reflexivity]].
  Qed.

  Lemma AB_sub_mod_ok : forall v o, 0 <= v -> 0 <= o -> o <= v + b_q AB ->
    exists d, b_sub_mod AB v o = Ok d /\ 0 <= d /\ d mod b_q AB = (v - o) mod b_q AB.
  Proof.
    intros v o _ _ _. cbn [b_sub_mod b_q AB]. eexists. split; [reflexivity | apply smod_ok].
  Qed.

  Lemma AB_xinvq_ok : forall d, 0 <= d -> d mod b_q AB <> 0 ->
    exists i, b_xinvq AB d = Ok i /\ 0 <= i /\ (d * i) mod b_q AB = 1.
  Proof.
    intros d Hd Hnz. cbn [b_xinvq b_q AB] in *. eexists. split; [reflexivity|].
    unfold sc_invert. rewrite k_powm_ok, powm_spec by discriminate.
    split; [apply Z.mod_pos_bound; reflexivity|].
    rewrite Zmult_mod_idemp_r.
    replace (d * d ^ (ell - 2)) with (d ^ (ell - 1)).
    2:{ replace (ell - 1) with (Z.succ (ell - 2)) by ring. rewrite Z.pow_succ_r by discriminate. reflexivity. }
    apply fermat_Z; [exact ell_prime|]. intro Hdiv. apply Hnz. now apply Zdivide_mod.
  Qed.

  Theorem rb_ab_morphism :
    aff (b_gen (RB K PM)) = b_gen AB /\ aff (b_one (RB K PM)) = b_one AB /\
    (forall P Q, valid P -> valid Q ->
       valid (b_mulp (RB K PM) P Q) /\ aff (b_mulp (RB K PM) P Q) = b_mulp AB (aff P) (aff Q)) /\
    (forall P, valid P -> exists P', b_invp (RB K PM) P = Ok P' /\ valid P' /\ b_invp AB (aff P) = Ok (aff P')) /\
    (forall P x, valid P -> valid (b_pow (RB K PM) P x) /\ aff (b_pow (RB K PM) P x) = b_pow AB (aff P) x) /\
    (forall P Q, valid P -> valid Q -> b_eqb AB (aff P) (aff Q) = true -> b_eqb (RB K PM) P Q = true) /\
    (forall x y, b_xadd (RB K PM) x y = b_xadd AB x y /\ b_xmul (RB K PM) x y = b_xmul AB x y) /\
    (forall bs, b_hash_to_exp (RB K PM) bs = b_hash_to_exp AB bs).
  Proof.
    split; [reflexivity|]. split; [exact aff_id|].
    split; [intros P Q VP VQ; exact (pt_add_correct K P Q VP VQ)|].
    split.
    { intros P VP. exists (pt_neg K P). split; [reflexivity|]. destruct (pt_neg_correct K P VP) as [V A].
      split; [exact V|]. cbn [b_invp AB]. now rewrite A. }
    split; [intros P x VP; exact (pm_correct PM x P VP)|].
    split.
    { intros P Q VP VQ H. apply apt_eqb_spec in H. now apply pt_eqb_of_aff. }
    split; [intros; split; reflexivity | reflexivity].
  Qed.

  Lemma aff_member P : valid P -> nmul Ln (aff P) = eid -> memA (aff P).
  Proof. exact (ord_l_aff P). Qed.
End AB.
