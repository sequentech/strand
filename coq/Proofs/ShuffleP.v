(* Proofs/ShuffleP.v — completeness of the Terelius-Wikstrom shuffle proof for the code-shaped model
   Model/Shuffler.v over any lawful backend and ANY hash function: an honest shuffle (apply_permutation)
   followed by gen_proof yields a proof that check_proof accepts. The honest proof is shown to meet the
   verifier's specification (Proofs/ShuffleSpec.v): right counts and the division-free equations. *)
From Coq Require Import ZArith List Lia Permutation.
From Strand Require Import Base.Poly Model.Outcome Model.Codec Model.Backend Model.Zkp Model.Shuffler
  Proofs.Laws Proofs.SigmaP Proofs.ShuffleSpec.
From Strand Require Import Proofs.ListAlg.
Import ListNotations.
Open Scope Z_scope.

Section ShuffleP.
  Variable B : Backend.
  Variable mem : E B -> Prop.
  Hypothesis L : Laws B mem.
  Notation q := (b_q B).
  Notation mulp := (b_mulp B).
  Notation pow := (b_pow B).
  Notation gpow := (b_gpow B).
  Notation one := (b_one B).
  Notation g := (b_gen B).
  Notation prodp := (prodp B).
  Notation xsum := (xsum B).
  Notation resp1 := (resp1 B).
  Notation powl := (powl B).
  Notation xmulf := (xmulf B).
  Notation wf_ct := (wf_ct B mem).
  Notation nonneg := (fun r : Z => 0 <= r).
  Notation nonneg2 := (fun p : Z * Z => 0 <= fst p /\ 0 <= snd p).

  (* Shuffler.resp1 and SigmaP.resp are convertible: [resp_ok] and [sigma_eq] apply to [resp1] as they stand *)
  Lemma resp1_nonneg r c x : 0 <= r -> 0 <= c -> 0 <= x -> 0 <= resp1 r c x.
  Proof. intros Hr Hc Hx. apply (resp_ok B mem L r c x Hr Hc Hx). Qed.

  Definition mulpowl (k : E B) (al : list (E B)) (rs : list Z) : list (E B) :=
    map (fun ar => mulp (fst ar) (pow k (snd ar))) (combine al rs).
  Definition respl (c : Z) (ws xs : list Z) : list Z :=
    map (fun wx => resp1 (fst wx) c (snd wx)) (combine ws xs).

  Lemma mulpowl_map {X} (f : X -> E B) k l rs :
    map (fun p => mulp (f (fst p)) (pow k (snd p))) (combine l rs) = mulpowl k (map f l) rs.
  Proof. unfold mulpowl. rewrite combine_map_l, map_map. reflexivity. Qed.

  Lemma mulpowl_mem k al : mem k -> Forall mem al -> forall rs, Forall nonneg rs -> Forall mem (mulpowl k al rs).
  Proof. intros Hk Ha rs Hr. apply (Forall_map_combine mem nonneg); [|assumption..]. intros a r Ha0 Hr0. memt. Qed.

  Lemma respl_nonneg c ws : 0 <= c -> Forall nonneg ws -> forall xs, Forall nonneg xs -> Forall nonneg (respl c ws xs).
  Proof.
    intros Hc Hw xs Hx. apply (Forall_map_combine nonneg nonneg); [|assumption..].
    intros w x Hw0 Hx0. apply resp1_nonneg; assumption.
  Qed.

  Lemma respl_length c ws xs : length xs = length ws -> length (respl c ws xs) = length ws.
  Proof. intros H. unfold respl. rewrite map_length, combine_length. lia. Qed.

  Lemma prod_sigma c bs : Forall mem bs -> 0 <= c -> forall ws xs,
    Forall nonneg ws -> Forall nonneg xs -> length ws = length bs -> length xs = length bs ->
    prodp (powl bs (respl c ws xs)) = mulp (prodp (powl bs ws)) (pow (prodp (powl bs xs)) c).
  Proof.
    intros Hbs Hc. induction Hbs as [|b bs Hb Hbs IH]; intros ws xs Hws Hxs Lw Lx.
    - unfold ListAlg.powl. cbn [combine map]. rewrite (prodp_nil B). rewrite (pow_one B mem L) by exact Hc.
      symmetry. apply (mulp_one_l B mem L). memt.
    - destruct Hws as [|w ws Hw Hws]; [discriminate|]. destruct Hxs as [|x xs Hx Hxs]; [discriminate|].
      cbn [length] in Lw, Lx.
      unfold respl, ListAlg.powl. cbn [combine map fst snd]. fold (respl c ws xs).
      fold (powl bs (respl c ws xs)) (powl bs ws) (powl bs xs).
      pose proof (powl_mem B mem L bs Hbs ws Hws) as M1. pose proof (powl_mem B mem L bs Hbs xs Hxs) as M2.
      pose proof (powl_mem B mem L bs Hbs _ (respl_nonneg c ws Hc Hws xs Hxs)) as M3.
      pose proof (prodp_mem B mem L _ M1) as P1. pose proof (prodp_mem B mem L _ M2) as P2.
      pose proof (resp1_nonneg w c x Hw Hc Hx) as Hr.
      rewrite !(prodp_cons B mem L) by (try assumption; memt).
      rewrite IH by (try assumption; lia).
      rewrite (sigma_eq B mem L) by assumption. rewrite (pow_mulp B mem L) by memt.
      apply (mulp4 B mem L); memt.
  Qed.

  Lemma prod_reenc k al : mem k -> Forall mem al -> forall rs us,
    Forall nonneg rs -> Forall nonneg us -> length rs = length al -> length us = length al ->
    prodp (powl (mulpowl k al rs) us) = mulp (pow k (zdotp (combine rs us))) (prodp (powl al us)).
  Proof.
    intros Hk Hal. induction Hal as [|a al Ha Hal IH]; intros rs us Hrs Hus Lr Lu.
    - unfold mulpowl, ListAlg.powl. cbn [combine map]. rewrite (prodp_nil B).
      destruct rs; [|discriminate]. cbn [combine zdotp fold_right]. rewrite (pow_0 B mem L) by exact Hk.
      symmetry. apply (mulp_one_l B mem L). memt.
    - destruct Hrs as [|r rs Hr Hrs]; [discriminate|]. destruct Hus as [|u us Hu Hus]; [discriminate|].
      cbn [length] in Lr, Lu.
      unfold mulpowl, ListAlg.powl. cbn [combine map fst snd].
      fold (mulpowl k al rs). fold (powl (mulpowl k al rs) us) (powl al us).
      pose proof (mulpowl_mem k al Hk Hal rs Hrs) as M0.
      pose proof (powl_mem B mem L _ M0 us Hus) as M1. pose proof (powl_mem B mem L al Hal us Hus) as M2.
      pose proof (prodp_mem B mem L _ M2) as P2.
      assert (Hd : 0 <= zdotp (combine rs us)) by (apply zdotp_nonneg, Forall_combine; assumption).
      rewrite !(prodp_cons B mem L) by (try assumption; memt).
      rewrite IH by (try assumption; lia).
      change (zdotp ((r, u) :: combine rs us)) with (r * u + zdotp (combine rs us)).
      rewrite (pow_add B mem L) by memt.
      rewrite (pow_mulp B mem L) by memt. rewrite (pow_mul B mem L) by memt.
      rewrite (mulp_comm B mem L (pow a u)) by memt. apply (mulp4 B mem L); memt.
  Qed.

  Lemma prod_plain k al : mem k -> Forall mem al -> forall rs,
    Forall nonneg rs -> length rs = length al ->
    prodp (mulpowl k al rs) = mulp (pow k (zsum rs)) (prodp al).
  Proof.
    intros Hk Hal. induction Hal as [|a al Ha Hal IH]; intros rs Hrs Lr.
    - unfold mulpowl. cbn [combine map]. rewrite (prodp_nil B).
      destruct rs; [|discriminate]. rewrite zsum_nil, (pow_0 B mem L) by exact Hk.
      symmetry. apply (mulp_one_l B mem L). memt.
    - destruct Hrs as [|r rs Hr Hrs]; [discriminate|]. cbn [length] in Lr.
      unfold mulpowl. cbn [combine map fst snd]. fold (mulpowl k al rs).
      pose proof (mulpowl_mem k al Hk Hal rs Hrs) as M0. pose proof (prodp_mem B mem L _ Hal) as P1.
      pose proof (zsum_nonneg rs Hrs) as Hs.
      rewrite !(prodp_cons B mem L) by (try assumption; memt).
      rewrite IH by (try assumption; lia).
      rewrite zsum_cons, (pow_add B mem L) by memt.
      rewrite (mulp_comm B mem L a) by memt. apply (mulp4 B mem L); memt.
  Qed.

  Lemma prodp_powl_pick bs xs perm :
    Permutation perm (iota (length bs)) -> length xs = length bs -> Forall mem bs -> Forall nonneg xs ->
    prodp (powl (pick one bs perm) (pick 0 xs perm)) = prodp (powl bs xs).
  Proof.
    intros HP Lx Hb Hx. pose proof (perm_range _ _ HP) as HR.
    apply (prodp_powl_perm B mem L).
    - apply pick_pair_perm; [lia|exact HP].
    - apply pick_Forall; assumption.
    - apply pick_Forall; [rewrite Lx|]; assumption.
  Qed.

  (* a commitment b^o times the c-th power of a statement b^x U answers with b^(o + c x) U^c; [sig_core] carries
     a further factor W of the commitment along *)
  Lemma sig_core1 b o x c U : mem b -> mem U -> 0 <= o -> 0 <= x -> 0 <= c ->
    mulp (pow b o) (pow (mulp (pow b x) U) c) = mulp (pow b (resp1 o c x)) (pow U c).
  Proof.
    intros Hb HU Ho Hx Hc.
    rewrite (pow_mulp B mem L) by memt. rewrite <- (mulp_assoc B mem L) by memt.
    now rewrite (sigma_eq B mem L b) by assumption.
  Qed.

  Lemma sig_core b o x c W U : mem b -> mem W -> mem U -> 0 <= o -> 0 <= x -> 0 <= c ->
    mulp (mulp (pow b o) W) (pow (mulp (pow b x) U) c) = mulp (pow b (resp1 o c x)) (mulp W (pow U c)).
  Proof.
    intros Hb HW HU Ho Hx Hc. pose proof (resp1_nonneg o c x Ho Hc Hx) as Hr.
    rewrite (mulp_comm B mem L (pow b o)) by memt. rewrite (mulp_assoc B mem L) by memt.
    rewrite sig_core1 by assumption. apply (mulp_swap B mem L); memt.
  Qed.

  (* equation 3: sig_core with W and U products of powers of the same bases *)
  Lemma agg_eq b l o x c ws xs :
    mem b -> Forall mem l -> 0 <= o -> 0 <= x -> 0 <= c ->
    Forall nonneg ws -> Forall nonneg xs -> length ws = length l -> length xs = length l ->
    mulp (mulp (pow b o) (prodp (powl l ws))) (pow (mulp (pow b x) (prodp (powl l xs))) c) =
    mulp (pow b (resp1 o c x)) (prodp (powl l (respl c ws xs))).
  Proof.
    intros Hb Hl Ho Hx Hc Hws Hxs Lw Lx. rewrite prod_sigma by assumption.
    apply sig_core; try assumption; apply (prodp_mem B mem L), (powl_mem B mem L); assumption.
  Qed.

  (* equations 4.1 and 4.2: commitments in the inverse ki of the base k of the check *)
  Lemma agg_eq_inv k ki l o x c ws xs :
    mem k -> mem ki -> mulp k ki = one -> Forall mem l -> 0 <= o -> 0 <= x -> 0 <= c ->
    Forall nonneg ws -> Forall nonneg xs -> length ws = length l -> length xs = length l ->
    mulp (mulp (mulp (pow ki o) (prodp (powl l ws))) (pow (mulp (pow ki x) (prodp (powl l xs))) c))
         (pow k (resp1 o c x)) =
    prodp (powl l (respl c ws xs)).
  Proof.
    intros Hk Hki Hinv Hl Ho Hx Hc Hws Hxs Lw Lx. pose proof (resp1_nonneg o c x Ho Hc Hx) as Hr.
    rewrite agg_eq by assumption.
    pose proof (prodp_mem B mem L _ (powl_mem B mem L l Hl _ (respl_nonneg c ws Hc Hws xs Hxs))) as HP.
    rewrite (mulp_comm B mem L (pow ki _)) by memt.
    apply (mulp_inv_r B mem L); [memt..|].
    apply (pow_inv_cancel B mem L); try assumption. rewrite (mulp_comm B mem L) by assumption. exact Hinv.
  Qed.

  Notation chain := (commitment_chain B).
  Notation vs_of := (vs_of B).

  Lemma chain_length us : forall rs prev, length rs = length us -> length (chain prev us rs) = length us.
  Proof.
    induction us as [|u us IH]; intros rs prev Hl; [reflexivity|].
    destruct rs as [|r rs]; [discriminate|]. cbn [commitment_chain length]. f_equal. apply IH.
    cbn [length] in Hl. lia.
  Qed.

  Lemma chain_mem us : Forall nonneg us -> forall rs prev, Forall nonneg rs -> mem prev ->
    Forall mem (chain prev us rs).
  Proof.
    induction 1 as [|u us Hu Hus IH]; intros rs prev Hrs Hp; [constructor|].
    destruct Hrs as [|r rs Hr Hrs]; [constructor|].
    cbn [commitment_chain]. constructor; [memt|]. apply IH; [assumption|memt].
  Qed.

  Lemma vs_cons2 u u1 r :
    vs_of (u :: u1 :: r) = b_xmodq B (b_xmul B u1 (hd 1 (vs_of (u1 :: r)))) :: vs_of (u1 :: r).
  Proof. reflexivity. Qed.

  Lemma vs_cons u rest : vs_of (u :: rest) = hd 1 (vs_of (u :: rest)) :: vs_of rest.
  Proof. destruct rest; reflexivity. Qed.

  Lemma vs_hd l : Forall nonneg l -> rep B (hd 1 (vs_of l)) (zprod (tl l)).
  Proof.
    induction 1 as [|u rest Hu Hrest IH]; [exact (rep_refl B 1 Z.le_0_1)|].
    destruct rest as [|u1 rest]; [exact (rep_refl B 1 Z.le_0_1)|].
    rewrite vs_cons2. cbn [hd tl] in *. inversion Hrest as [|? ? Hu1 _]; subst.
    rewrite zprod_cons. exact (rep_umul B mem L (rep_refl B u1 Hu1) IH).
  Qed.

  Lemma vs_nonneg l : Forall nonneg l -> Forall nonneg (vs_of l).
  Proof.
    induction 1 as [|u rest Hu Hrest IH]; [constructor|].
    rewrite vs_cons. constructor; [|exact IH]. apply vs_hd. constructor; assumption.
  Qed.

  Lemma vs_length l : length (vs_of l) = length l.
  Proof. induction l as [|u rest IH]; [reflexivity|]. rewrite vs_cons. cbn [length]. now rewrite IH. Qed.

  Lemma chain_closed us : Forall nonneg us -> forall rs prev, Forall nonneg rs -> length rs = length us ->
    mem prev ->
    last (chain prev us rs) prev = mulp (gpow (zdotp (combine rs (vs_of us)))) (pow prev (zprod us)).
  Proof.
    induction 1 as [|u us Hu Hus IH]; intros rs prev Hrs Hl Hp.
    - destruct rs; [|discriminate]. cbn [commitment_chain last combine]. unfold zdotp, zprod; cbn [fold_right].
      unfold b_gpow. rewrite (pow_0 B mem L) by memt. rewrite (pow_1 B mem L) by exact Hp.
      symmetry. apply (mulp_one_l B mem L); exact Hp.
    - destruct Hrs as [|r rs Hr Hrs]; [discriminate|]. cbn [length] in Hl.
      cbn [commitment_chain]. rewrite last_cons.
      set (c1 := mulp (gpow r) (pow prev u)). assert (Hc1 : mem c1) by (unfold c1; memt).
      rewrite IH by (try assumption; lia).
      rewrite vs_cons. set (v0 := hd 1 (vs_of (u :: us))).
      destruct (vs_hd (u :: us) ltac:(constructor; assumption)) as [Hv0 Ev0]. fold v0 in Hv0, Ev0. cbn [tl] in Ev0.
      cbn [combine]. change (zdotp ((r, v0) :: combine rs (vs_of us))) with (r * v0 + zdotp (combine rs (vs_of us))).
      rewrite zprod_cons.
      set (D := zdotp (combine rs (vs_of us))).
      assert (HD : 0 <= D) by (apply zdotp_nonneg, Forall_combine; [assumption|apply vs_nonneg; assumption]).
      pose proof (zprod_nonneg us Hus) as HP. set (P := zprod us) in *.
      unfold c1, b_gpow.
      rewrite (pow_mulp B mem L) by memt. rewrite !(pow_mul B mem L) by memt.
      rewrite (pow_add B mem L) by memt.
      rewrite (pow_congr B mem L g (r * v0) (r * P)) by
        (memt; rewrite Ev0; reflexivity).
      rewrite (mulp_swap B mem L) by memt. symmetry. apply (mulp_assoc B mem L); memt.
  Qed.

  Definition thatf (pww : E B * (Z * Z)) : E B :=
    mulp (gpow (fst (snd pww))) (pow (fst pww) (snd (snd pww))).

  Lemma that_mem prevs whs wps : Forall mem prevs -> Forall nonneg whs -> Forall nonneg wps ->
    Forall mem (map thatf (zip3 prevs whs wps)).
  Proof.
    intros Hp Hh Hw. apply (Forall_map_combine mem nonneg2); [|exact Hp|apply Forall_combine; assumption].
    intros prev [wh wp] H1 [H2 H3]. unfold thatf. cbn [fst snd] in *. memt.
  Qed.

  (* the chain equations hold index by index: with that = g^wh prev^wp and ci = g^rh prev^u this is
     sig_core for the base g, with W = prev^wp and U = prev^u *)
  Lemma chain_eqs c : 0 <= c -> forall wh, Forall nonneg wh -> forall wp us rs prev,
    Forall nonneg wp -> Forall nonneg us -> Forall nonneg rs -> mem prev ->
    Forall (chain_eq B c)
      (combine (map thatf (zip3 (prev :: chain prev us rs) wh wp))
         (combine (prev :: chain prev us rs)
            (combine (chain prev us rs) (combine (respl c wh rs) (respl c wp us))))).
  Proof.
    intros Hc. induction 1 as [|a wh Ha Hwh IH]; intros wp us rs prev Hwp Hus Hrs Hprev; [constructor|].
    destruct Hwp as [|b wp Hb Hwp]; [constructor|].
    destruct Hus as [|u us Hu Hus]; [constructor|]. destruct Hrs as [|r rs Hr Hrs]; [constructor|].
    cbn [commitment_chain]. set (c1 := mulp (gpow r) (pow prev u)).
    assert (Hc1 : mem c1) by (unfold c1; memt).
    unfold zip3, respl. cbn [combine map]. constructor; [|apply (IH wp us rs c1); assumption].
    unfold chain_eq, thatf, c1, b_gpow. cbn [fst snd].
    rewrite (sigma_eq B mem L prev) by assumption. apply sig_core; memt.
  Qed.

  Lemma set_nth_ok {A} (l : list A) : forall i v, (i < length l)%nat ->
    exists l', set_nth l i v = Some l' /\ length l' = length l /\ nth_error l' i = Some v /\
               forall j, j <> i -> nth_error l' j = nth_error l j.
  Proof.
    induction l as [|x l IH]; intros i v Hi; [cbn in Hi; lia|].
    destruct i as [|i].
    - exists (v :: l). cbn. repeat split. intros j Hj. destruct j; [congruence|reflexivity].
    - destruct (IH i v ltac:(cbn in Hi; lia)) as (l' & E & Hl & Hn & Ho).
      exists (x :: l'). cbn [set_nth]. rewrite E. cbn [length nth_error]. repeat split; [lia|exact Hn|].
      intros j Hj. destruct j; [reflexivity|]. cbn [nth_error]. apply Ho. lia.
  Qed.

  (* the loop body of gen_commitments, in its words *)
  Definition gc_step (acc : outcome (list (E B) * list Z)) (icr : Z * (E B * Z))
    : outcome (list (E B) * list Z) :=
    ('(cp, rp) <- acc ;;
     let '(i, (c, r)) := icr in
     if i <? 0 then Panic else
     match set_nth cp (Z.to_nat i) c, set_nth rp (Z.to_nat i) r with
     | Some cp', Some rp' => Ok (cp', rp')
     | _, _ => Panic
     end)%outcome.

  Lemma gc_fold ics : NoDup (map fst ics) -> forall cp rp, length rp = length cp ->
    Forall (fun x => in_range (length cp) (fst x)) ics ->
    exists cp' rp', fold_left gc_step ics (Ok (cp, rp)) = Ok (cp', rp') /\
      length cp' = length cp /\ length rp' = length cp /\
      (forall i c r, In (i, (c, r)) ics ->
         nth_error cp' (Z.to_nat i) = Some c /\ nth_error rp' (Z.to_nat i) = Some r) /\
      (forall j, ~ In (Z.of_nat j) (map fst ics) ->
         nth_error cp' j = nth_error cp j /\ nth_error rp' j = nth_error rp j).
  Proof.
    induction ics as [|[i [c r]] ics IH]; intros ND cp rp Hl HR.
    - exists cp, rp. cbn [fold_left]. split; [reflexivity|]. split; [reflexivity|]. split; [exact Hl|].
      split; [intros ? ? ? []|]. intros j _. split; reflexivity.
    - cbn [map fst] in ND. inversion ND as [|? ? Hni ND']; subst.
      inversion HR as [|? ? Hi HR']; subst. cbn [fst] in Hi. unfold in_range in Hi.
      destruct (set_nth_ok cp (Z.to_nat i) c ltac:(lia)) as (cp1 & E1 & L1 & N1 & O1).
      destruct (set_nth_ok rp (Z.to_nat i) r ltac:(lia)) as (rp1 & E2 & L2 & N2 & O2).
      destruct (IH ND' cp1 rp1 ltac:(lia) ltac:(rewrite L1; exact HR')) as (cp' & rp' & Hf & Lc & Lr & Hin & Hout).
      exists cp', rp'. split; [|split; [lia|split; [lia|split]]].
      + cbn [fold_left]. unfold gc_step at 2. cbn [bind].
        replace (i <? 0) with false by (symmetry; apply Z.ltb_ge; lia).
        rewrite E1, E2. exact Hf.
      + intros i0 c0 r0 [Heq|Hin0].
        * injection Heq as <- <- <-.
          destruct (Hout (Z.to_nat i)) as [H1 H2]; [rewrite Z2Nat.id by lia; exact Hni|].
          rewrite H1, H2. split; assumption.
        * apply Hin; exact Hin0.
      + intros j Hj. cbn [map fst] in Hj.
        assert (Hji : j <> Z.to_nat i).
        { intros ->. apply Hj. left. rewrite Z2Nat.id by lia. reflexivity. }
        destruct (Hout j) as [H1 H2]; [intro; apply Hj; right; assumption|].
        rewrite H1, H2. split; [apply O1|apply O2]; exact Hji.
  Qed.

  (* cp and rp are the permuted commitments to hs and their exponents: cp[perm[i]] = h_i g^(rp[perm[i]]) *)
  Definition committed (hs cp : list (E B)) (rp perm : list Z) : Prop :=
    Forall mem hs /\ Forall nonneg rp /\ Permutation perm (iota (length cp)) /\
    length hs = length cp /\ length rp = length cp /\ pick one cp perm = mulpowl g hs (pick 0 rp perm).

  Lemma gen_commitments_ok hs perm rs n : Forall mem hs -> Forall nonneg rs ->
    length hs = n -> length rs = n -> Permutation perm (iota n) ->
    exists cp rp, gen_commitments B hs perm rs = Ok (cp, rp) /\ length cp = n /\ committed hs cp rp perm.
  Proof.
    intros Hhs Hrs Lh Lr HP. pose proof (perm_length _ _ HP) as Lp. pose proof (perm_range _ _ HP) as HR.
    pose proof (perm_NoDup _ _ HP) as ND.
    set (cs0 := mulpowl g hs rs).
    assert (Lc0 : length cs0 = n) by (unfold cs0, mulpowl; rewrite map_length, combine_length; lia).
    assert (Lcr : length (combine cs0 rs) = n) by (rewrite combine_length; lia).
    destruct (gc_fold (combine perm (combine cs0 rs))
                ltac:(rewrite map_fst_combine by lia; exact ND)
                (repeat one (length perm)) (repeat 1 (length perm))
                ltac:(now rewrite !repeat_length)) as (cp & rp & Hf & Lc & Lrp & Hin & _).
    { rewrite repeat_length, Lp. rewrite Forall_forall in *. intros [i x] Hx. cbn [fst].
      apply HR. apply in_combine_l in Hx. exact Hx. }
    rewrite repeat_length, Lp in Lc, Lrp.
    exists cp, rp. split; [|split; [exact Lc|]].
    - rewrite Lp in Hf. unfold gen_commitments. rewrite Lh, Lp, Lr, Nat.eqb_refl. cbn [negb]. exact Hf.
    - assert (Hm : map (fun i => (nth (Z.to_nat i) cp one, nth (Z.to_nat i) rp 0)) perm = combine cs0 rs).
      { apply map_combine_ext; [lia|]. intros i [c r] Hx. destruct (Hin i c r Hx) as [H1 H2].
        f_equal; apply nth_error_nth; assumption. }
      assert (Pc : pick one cp perm = cs0).
      { transitivity (map fst (combine cs0 rs)); [|apply map_fst_combine; lia].
        unfold pick. rewrite <- Hm, map_map. reflexivity. }
      assert (Pr : pick 0 rp perm = rs).
      { transitivity (map snd (combine cs0 rs)); [|apply map_snd_combine; lia].
        unfold pick. rewrite <- Hm, map_map. reflexivity. }
      unfold committed. rewrite Pc, Pr, Lc. repeat split; try assumption; try lia.
      refine (Permutation_Forall (pick_perm 0 rp perm _) _); [rewrite Lrp; exact HP|].
      rewrite Pr. exact Hrs.
  Qed.

  Lemma xmodq_xdot_ok rs us : Forall nonneg rs -> Forall nonneg us ->
    rep B (b_xmodq B (xsum (map xmulf (combine rs us)))) (zdotp (combine rs us)).
  Proof. intros Hr Hu. exact (rep_xmodq B mem L (xdot_ok B mem L _ (Forall_combine _ _ _ _ Hr Hu))). Qed.

  Lemma agg_reenc k ki A rs us perm :
    mem k -> mem ki -> mulp k ki = one -> Forall mem A -> Forall nonneg rs -> Forall nonneg us ->
    length rs = length A -> length us = length A -> Permutation perm (iota (length A)) ->
    prodp (powl A us) =
    mulp (pow ki (b_xmodq B (xsum (map xmulf (combine rs us)))))
         (prodp (powl (mulpowl k (pick one A perm) (pick 0 rs perm)) (pick 0 us perm))).
  Proof.
    intros Hk Hki Hinv HA Hrs Hus Lr Lu HP.
    pose proof (perm_range _ _ HP) as HR.
    assert (HA' : Forall mem (pick one A perm)) by (apply pick_Forall; assumption).
    assert (Hr' : Forall nonneg (pick 0 rs perm)) by (apply pick_Forall; [rewrite Lr|]; assumption).
    assert (Hu' : Forall nonneg (pick 0 us perm)) by (apply pick_Forall; [rewrite Lu|]; assumption).
    rewrite prod_reenc by (try assumption; rewrite !pick_length; reflexivity).
    rewrite prodp_powl_pick by assumption.
    rewrite (zdotp_pick 0 0 rs us perm) by (try lia; rewrite Lr; exact HP).
    destruct (xmodq_xdot_ok rs us Hrs Hus) as [H0 E].
    assert (HZ : 0 <= zdotp (combine rs us)) by (apply zdotp_nonneg, Forall_combine; assumption).
    rewrite (pow_congr B mem L ki _ _ Hki H0 HZ E).
    pose proof (prodp_mem B mem L _ (powl_mem B mem L A HA us Hus)) as HP1.
    rewrite <- (mulp_assoc B mem L) by memt.
    rewrite (mulp_comm B mem L (pow ki _)) by memt.
    rewrite (pow_inv_cancel B mem L) by assumption.
    symmetry. apply (mulp_one_l B mem L); exact HP1.
  Qed.

  Definition de : ctext B := {| mhr := one; gr := one |}.
  Definition reencf (pk : E B) (cr : ctext B * Z) : ctext B := reenc B pk (fst cr) (snd cr).

  Lemma reenc_mhr pk es' r' :
    map (@mhr B) (map (reencf pk) (combine es' r')) = mulpowl pk (map (@mhr B) es') r'.
  Proof. rewrite map_map. rewrite <- mulpowl_map. reflexivity. Qed.

  Lemma reenc_gr pk es' r' :
    map (@gr B) (map (reencf pk) (combine es' r')) = mulpowl g (map (@gr B) es') r'.
  Proof. rewrite map_map. rewrite <- mulpowl_map. reflexivity. Qed.

  Lemma reenc_wf pk c r : mem pk -> 0 <= r -> wf_ct c -> wf_ct (reenc B pk c r).
  Proof. intros Hpk Hr [Hm Hg]. split; cbn [reenc mhr gr]; memt. Qed.

  Lemma reencf_wf pk cs rs : mem pk -> Forall wf_ct cs -> Forall nonneg rs ->
    Forall wf_ct (map (reencf pk) (combine cs rs)).
  Proof.
    intros Hpk Hcs Hrs. apply (Forall_map_combine wf_ct nonneg); [|assumption..].
    intros c r Hc Hr. apply reenc_wf; assumption.
  Qed.

  Lemma apply_permutation_eq pk perm es rs :
    Permutation perm (iota (length es)) -> length rs = length es ->
    apply_permutation B pk perm es rs =
    Ok (map (reencf pk) (combine (pick de es perm) (pick 0 rs perm)), rs).
  Proof.
    intros HP Lr. pose proof (perm_length _ _ HP) as Lp. pose proof (perm_range _ _ HP) as HR.
    unfold apply_permutation. rewrite Lp, Lr, Nat.eqb_refl. cbn [negb].
    change (fun cr : ctext B * Z => reenc B pk (fst cr) (snd cr)) with (reencf pk).
    rewrite (mapM_nthZ (reencf pk (de, 0)))
      by (rewrite map_length, combine_length, Lr, Nat.min_id; exact HR).
    cbn [bind]. rewrite pick_map. rewrite pick_combine by lia. reflexivity.
  Qed.

  Lemma apply_permutation_spec pk perm es rs e_primes rs' :
    Permutation perm (iota (length es)) -> length rs = length es ->
    apply_permutation B pk perm es rs = Ok (e_primes, rs') ->
    e_primes = map (reencf pk) (combine (pick de es perm) (pick 0 rs perm)) /\ rs' = rs.
  Proof.
    intros HP Lr H. rewrite (apply_permutation_eq pk perm es rs HP Lr) in H.
    injection H as <- <-. split; reflexivity.
  Qed.

  Ltac len := repeat rewrite ?firstn_length, ?skipn_length; lia.

  Lemma commit_picked hs cp rp perm : committed hs cp rp perm ->
    Forall nonneg (pick 0 rp perm) /\ Forall mem (pick one cp perm).
  Proof.
    intros (Hhs & Hrp & HP & Lhs & Lrp & Hpick).
    assert (H : Forall nonneg (pick 0 rp perm)) by (apply pick_Forall; [rewrite Lrp; apply (perm_range _ _ HP)|exact Hrp]).
    split; [exact H|]. rewrite Hpick. apply mulpowl_mem; [memt|exact Hhs|exact H].
  Qed.

  Lemma commit_mem hs cp rp perm : committed hs cp rp perm -> Forall mem cp.
  Proof.
    intros HC. refine (Permutation_Forall (pick_perm one cp perm _) (proj2 (commit_picked hs cp rp perm HC))).
    apply HC.
  Qed.

  (* equation 1: prod cp = g^r_bar * prod hs *)
  Lemma commit_prod hs cp rp perm : committed hs cp rp perm ->
    prodp cp = mulp (gpow (b_xmodq B (xsum rp))) (prodp hs).
  Proof.
    intros HC. destruct (commit_picked hs cp rp perm HC) as [Hr Hc].
    destruct HC as (Hhs & Hrp & HP & Lhs & Lrp & Hpick). pose proof (perm_length _ _ HP) as Lp.
    rewrite <- (prodp_perm B mem L _ cp (pick_perm one cp perm HP) Hc).
    rewrite Hpick, prod_plain by (try assumption; try memt; rewrite pick_length; lia).
    destruct (rep_xmodq B mem L (xsum_ok B mem L rp Hrp)) as [H0 E]. unfold b_gpow. f_equal.
    apply (pow_congr B mem L); [memt|apply zsum_nonneg; exact Hr|exact H0|].
    rewrite E. unfold eqm. f_equal. apply zsum_perm, pick_perm. rewrite Lrp. exact HP.
  Qed.

  (* equation 3: prod cp_i^u_i = g^r_tilde * prod h_i^u'_i *)
  Lemma commit_powprod hs cp rp perm us : committed hs cp rp perm -> Forall nonneg us -> length us = length cp ->
    prodp (powl cp us) =
    mulp (gpow (b_xmodq B (xsum (map xmulf (combine rp us))))) (prodp (powl hs (pick 0 us perm))).
  Proof.
    intros HC Hus Lus. destruct (commit_picked hs cp rp perm HC) as [Hr Hc].
    pose proof (commit_mem hs cp rp perm HC) as Hcp.
    destruct HC as (Hhs & Hrp & HP & Lhs & Lrp & Hpick). pose proof (perm_length _ _ HP) as Lp.
    assert (Hu' : Forall nonneg (pick 0 us perm))
      by (apply pick_Forall; [rewrite Lus; apply (perm_range _ _ HP)|exact Hus]).
    rewrite <- (prodp_powl_pick cp us perm HP Lus Hcp Hus).
    rewrite Hpick, prod_reenc by (try assumption; try memt; rewrite !pick_length; lia).
    destruct (xmodq_xdot_ok rp us Hrp Hus) as [H0 E]. unfold b_gpow. f_equal.
    apply (pow_congr B mem L); [memt|apply zdotp_nonneg, Forall_combine; assumption|exact H0|].
    rewrite E. unfold eqm. f_equal. apply zdotp_pick; [lia|rewrite Lrp; exact HP].
  Qed.

  (* equation 2: the last link of the chain over u' is g^r_hat * h0^(prod us), us any reordering of u' *)
  Lemma chain_last h0 us u' rs : mem h0 -> Forall nonneg us -> Permutation u' us ->
    Forall nonneg rs -> length rs = length u' -> (1 <= length u')%nat ->
    last (chain h0 u' rs) one =
    mulp (gpow (b_xmodq B (xsum (map xmulf (combine rs (vs_of u'))))))
         (pow h0 (fold_left (fun acc x : Z => b_xmodq B (b_xmul B acc x)) us 1)).
  Proof.
    intros Hh0 Hus Pu Hrs Lr Hne.
    assert (Hu' : Forall nonneg u') by exact (Permutation_Forall (Permutation_sym Pu) Hus).
    rewrite (last_nonempty _ one h0) by (rewrite chain_length; assumption).
    rewrite chain_closed by assumption.
    pose proof (vs_nonneg u' Hu') as Hvs.
    destruct (xmodq_xdot_ok rs (vs_of u') Hrs Hvs) as [H0 E].
    destruct (uprod_acc B mem L us Hus 1 1 (rep_refl B 1 Z.le_0_1)) as [H1 E1].
    unfold b_gpow. f_equal; apply (pow_congr B mem L); try assumption; try memt.
    - apply zdotp_nonneg, Forall_combine; assumption.
    - symmetry. exact E.
    - apply zprod_nonneg; exact Hu'.
    - symmetry. etransitivity; [exact E1|]. now rewrite Z.mul_1_l, (zprod_perm _ _ Pu).
  Qed.

  Lemma tw_ext pk h0 hs es rs perm cp rp label draws :
    mem pk -> mem h0 -> Forall wf_ct es -> (1 <= length es)%nat ->
    Forall nonneg rs -> length rs = length es ->
    committed hs cp rp perm -> length cp = length es ->
    Forall nonneg draws -> length draws = (3 * length es + 4)%nat ->
    let e_primes := map (reencf pk) (combine (pick de es perm) (pick 0 rs perm)) in
    exists pf, gen_proof_ext B pk (h0 :: hs) es e_primes rs perm cp rp label draws = Ok pf /\
               check_proof B pk (h0 :: hs) pf es e_primes label = Ok true.
  Proof.
    intros Hpk Hh0 Hes HN Hrs Lrs HC Lcp Hdr Ldr e_primes.
    pose proof HC as (Hhs & Hrp & HP & Lhs & Lrp & Hpick). rewrite Lcp in HP, Lhs, Lrp.
    pose proof (perm_length _ _ HP) as Lp. pose proof (perm_range _ _ HP) as HR.
    assert (Hg : mem g) by memt.
    pose proof (commit_mem hs cp rp perm HC) as Hcp.
    assert (Lep : length e_primes = length es).
    { unfold e_primes. rewrite map_length, combine_length, !pick_length. lia. }
    assert (Hr' : Forall nonneg (pick 0 rs perm)) by (apply pick_Forall; [rewrite Lrs|]; assumption).
    assert (Hep : Forall wf_ct e_primes) by (apply reencf_wf; try assumption; apply pick_Forall; assumption).
    pose proof (wf_ct_mhr B mem es Hes) as HA. pose proof (wf_ct_gr B mem es Hes) as HG.
    pose proof (wf_ct_mhr B mem e_primes Hep) as Hem. pose proof (wf_ct_gr B mem e_primes Hep) as Heg.
    set (us := shuffle_us B es e_primes cp (length es) label).
    destruct (shuffle_us_ok B mem L es e_primes cp (length es) label) as [Lus Hus]. fold us in Lus, Hus.
    set (u' := pick 0 us perm).
    assert (Eu : mapM (nthZ us) perm = Ok u') by (apply mapM_nthZ; rewrite Lus; exact HR).
    assert (Hu' : Forall nonneg u') by (apply pick_Forall; [rewrite Lus|]; assumption).
    assert (Lu' : length u' = length es) by (unfold u'; rewrite pick_length; exact Lp).
    assert (Pu : Permutation u' us) by (apply pick_perm; rewrite Lus; exact HP).
    set (r_hats := firstn (length es) draws).
    set (omegas := firstn 4 (skipn (length es) draws)).
    set (omega_hats := firstn (length es) (skipn (length es + 4) draws)).
    set (omega_primes := skipn (length es + 4 + length es) draws).
    assert (Lrh : length r_hats = length es) by (unfold r_hats; len).
    assert (Loh : length omega_hats = length es) by (unfold omega_hats; len).
    assert (Lop : length omega_primes = length es) by (unfold omega_primes; len).
    assert (Hrh : Forall nonneg r_hats) by (apply Forall_firstn'; assumption).
    assert (Hos : Forall nonneg omegas) by (apply Forall_firstn', Forall_skipn'; assumption).
    assert (Hoh : Forall nonneg omega_hats) by (apply Forall_firstn', Forall_skipn'; assumption).
    assert (Hop : Forall nonneg omega_primes) by (apply Forall_skipn'; assumption).
    set (o0 := nth 0 omegas 0). set (o1 := nth 1 omegas 0). set (o2 := nth 2 omegas 0). set (o3 := nth 3 omegas 0).
    assert (Ho0 : 0 <= o0) by (apply Forall_nth_nonneg; assumption).
    assert (Ho1 : 0 <= o1) by (apply Forall_nth_nonneg; assumption).
    assert (Ho2 : 0 <= o2) by (apply Forall_nth_nonneg; assumption).
    assert (Ho3 : 0 <= o3) by (apply Forall_nth_nonneg; assumption).
    set (c_hats := chain h0 u' r_hats).
    assert (Lch : length c_hats = length es) by (unfold c_hats; rewrite chain_length; lia).
    assert (Hch : Forall mem c_hats) by (apply chain_mem; assumption).
    set (r_bar := b_xmodq B (xsum rp)).
    set (r_hat := b_xmodq B (xsum (map xmulf (combine r_hats (vs_of u'))))).
    set (r_tilde := b_xmodq B (xsum (map xmulf (combine rp us)))).
    set (r_prime := b_xmodq B (xsum (map xmulf (combine rs us)))).
    assert (Hrb : 0 <= r_bar) by exact (proj1 (rep_xmodq B mem L (xsum_ok B mem L rp Hrp))).
    assert (Hrt : 0 <= r_hat) by (apply xmodq_xdot_ok; [|apply vs_nonneg]; assumption).
    assert (Hrl : 0 <= r_tilde) by (apply xmodq_xdot_ok; assumption).
    assert (Hrp' : 0 <= r_prime) by (apply xmodq_xdot_ok; assumption).
    destruct (invp_ok B mem L pk Hpk) as (pk_inv & Epk & Hpki & Hpkinv).
    destruct (invp_ok B mem L g Hg) as (g_inv & Eg & Hgi & Hginv).
    set (t := {| t1 := gpow o0; t2 := gpow o1;
                 t3 := mulp (gpow o2) (prodp (powl hs omega_primes));
                 t41 := mulp (pow pk_inv o3)
                          (prodp (map (fun ew : ctext B * Z => pow (mhr (fst ew)) (snd ew)) (combine e_primes omega_primes)));
                 t42 := mulp (pow g_inv o3)
                          (prodp (map (fun ew : ctext B * Z => pow (gr (fst ew)) (snd ew)) (combine e_primes omega_primes)));
                 t_hats := map thatf (zip3 (h0 :: c_hats) omega_hats omega_primes) |}).
    set (c := shuffle_challenge B es e_primes cp c_hats pk t label).
    assert (Hc : 0 <= c) by apply (hash_range B mem L).
    set (s := {| s1 := resp1 o0 c r_bar; s2 := resp1 o1 c r_hat; s3 := resp1 o2 c r_tilde;
                 s4 := resp1 o3 c r_prime;
                 s_hats := respl c omega_hats r_hats; s_primes := respl c omega_primes u' |}).
    exists {| pf_t := t; pf_s := s; pf_cs := cp; pf_c_hats := c_hats |}.
    split.
    - unfold gen_proof_ext. cbv zeta.
      rewrite Lep, Lrs, Lp, Lhs, !Nat.eqb_refl, (proj2 (Nat.ltb_lt _ _) HN). cbn [andb negb].
      rewrite Ldr, Nat.eqb_refl. cbn [negb].
      eapply bind_rw; [exact Eu|]. eapply bind_rw; [exact Epk|]. eapply bind_rw; [exact Eg|].
      reflexivity.
    - assert (Hsp : Forall nonneg (respl c omega_primes u')) by (apply respl_nonneg; assumption).
      assert (HW3 : mem (prodp (powl hs omega_primes))) by (apply (prodp_mem B mem L), (powl_mem B mem L); assumption).
      assert (HW41 : mem (prodp (powl (map (@mhr B) e_primes) omega_primes)))
        by (apply (prodp_mem B mem L), (powl_mem B mem L); assumption).
      assert (HW42 : mem (prodp (powl (map (@gr B) e_primes) omega_primes)))
        by (apply (prodp_mem B mem L), (powl_mem B mem L); assumption).
      apply (check_proof_spec B mem L); try assumption; [|split].
      + unfold wf_proof. cbv zeta. unfold t, s.
        cbn [pf_t pf_s pf_cs pf_c_hats t1 t2 t3 t41 t42 t_hats s1 s2 s3 s4 s_hats s_primes].
        rewrite (powl_map B (@mhr B)), (powl_map B (@gr B)).
        repeat split; try assumption; try (apply resp1_nonneg; assumption); try memt.
        * apply that_mem; try assumption. constructor; assumption.
        * apply respl_nonneg; assumption.
      + unfold lengths_ok. cbv zeta. unfold t, s. cbn [pf_t pf_s pf_cs pf_c_hats t_hats s_hats s_primes].
        unfold zip3. rewrite map_length, !combine_length, !respl_length by lia. cbn [length].
        repeat split; lia.
      + unfold tw_equations. cbv zeta. cbn [pf_t pf_s pf_cs pf_c_hats]. fold us c. unfold t, s.
        cbn [t1 t2 t3 t41 t42 t_hats s1 s2 s3 s4 s_hats s_primes].
        rewrite !(powl_map B (@mhr B)), !(powl_map B (@gr B)).
        change (map (fun p : E B * Z => pow (fst p) (snd p)) (combine ?l ?x)) with (powl l x).
        refine (conj _ (conj _ (conj _ (conj _ (conj _ _))))).
        * (* 1 *) rewrite (commit_prod hs cp rp perm HC).
          unfold b_gpow. apply sig_core1; try assumption. apply (prodp_mem B mem L); exact Hhs.
        * (* 2 *) unfold c_hats. rewrite (chain_last h0 us u' r_hats) by (try assumption; lia).
          unfold b_gpow. apply sig_core1; try assumption. memt. apply (us_prod_nonneg B mem L); exact Hus.
        * (* 3 *) rewrite (commit_powprod hs cp rp perm us HC Hus) by lia. fold u'.
          unfold b_gpow. apply agg_eq; try assumption; lia.
        * (* 4.1 *) rewrite (agg_reenc pk pk_inv (map (@mhr B) es) rs us perm) by (try assumption; rewrite map_length; assumption).
          rewrite (pick_map (@mhr B) de), <- reenc_mhr. fold e_primes u' r_prime.
          apply agg_eq_inv; try assumption; rewrite map_length; lia.
        * (* 4.2 *) rewrite (agg_reenc g g_inv (map (@gr B) es) rs us perm) by (try assumption; rewrite map_length; assumption).
          rewrite (pick_map (@gr B) de), <- (reenc_gr pk). fold e_primes u' r_prime.
          apply agg_eq_inv; try assumption; rewrite map_length; lia.
        * (* chain *) apply chain_eqs; assumption.
  Qed.

End ShuffleP.

Theorem tw_complete : forall (B : Backend) (mem : E B -> Prop), Laws B mem ->
  forall (pk : E B) (gens : list (E B)) (es : list (ctext B)) (rs_reenc : list Z) (perm : list Z)
         (label : bytes) (draws : list Z) (e_primes : list (ctext B)) (rs' : list Z),
  mem pk -> Forall mem gens ->
  Forall (fun c => mem (mhr c) /\ mem (gr c)) es ->
  Permutation perm (map Z.of_nat (seq 0 (length es))) ->
  (1 <= length es)%nat -> length gens = S (length es) ->
  Forall (fun r => 0 <= r) rs_reenc -> length rs_reenc = length es ->
  Forall (fun r => 0 <= r) draws -> length draws = (4 * length es + 4)%nat ->
  apply_permutation B pk perm es rs_reenc = Ok (e_primes, rs') ->
  exists pf, gen_proof B pk gens es e_primes rs' perm label draws = Ok pf /\
             check_proof B pk gens pf es e_primes label = Ok true.
Proof.
  intros B mem L pk gens es rs perm label draws e_primes rs' Hpk Hgens Hes HP HN Lg Hrs Lrs Hdr Ldr Happ.
  change (map Z.of_nat (seq 0 (length es))) with (iota (length es)) in HP.
  destruct gens as [|h0 hs]; [discriminate|]. injection Lg as Lhs.
  inversion Hgens as [|? ? Hh0 Hhs]; subst.
  destruct (apply_permutation_spec B pk perm es rs e_primes rs' HP Lrs Happ) as [-> ->].
  set (rho := firstn (length es) draws).
  assert (Lrho : length rho = length es) by (unfold rho; rewrite firstn_length; lia).
  destruct (gen_commitments_ok B mem hs perm rho (length es) Hhs (Forall_firstn' _ _ _ Hdr) Lhs Lrho HP)
    as (cp & rp & Egc & Lcp & HC).
  unfold gen_proof. cbv zeta. rewrite Lhs. fold rho. rewrite Egc. cbn [bind].
  apply (tw_ext B mem L); try assumption.
  - apply Forall_skipn'; exact Hdr.
  - rewrite skipn_length. lia.
Qed.

Print Assumptions tw_complete.
