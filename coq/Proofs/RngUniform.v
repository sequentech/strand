(* Proofs/RngUniform.v — rand 0.8's UniformInt<u32>::sample_single (Model/Rng.v gen_index) is EXACTLY uniform:
   for a bound 1 <= ubound < 2^32 one attempt on the 32-bit word v is accepted with result j iff v lies in a
   block of exactly 2^lz consecutive words (lz = leading zeros of ubound), one block per result j in [0,ubound).
   Every result therefore has the same number 2^lz of accepting words out of 2^32, whatever ubound is: no modulo
   bias. Together with fy_injective (Proofs/RngP.v) this makes gen_permutation uniform over all n! permutations
   when the stream bytes are uniform. *)
From Coq Require Import ZArith List Lia.
From Strand Require Import Model.Outcome Model.Codec Model.Rng Proofs.RngP.
Import ListNotations.
Open Scope Z_scope.

(* zone + 1 = ubound * 2^lz, between 2^31 and 2^32 *)
Lemma shifted_range b : 0 < b < 2 ^ 32 ->
  let lz := 32 - bitlen b in 2 ^ 31 <= b * 2 ^ lz < 2 ^ 32.
Proof.
  intros Hb lz. pose proof (bitlen_le32 b Hb) as Hl. pose proof (bitlen_lower b (proj1 Hb)) as Hlo.
  pose proof (bitlen_spec b (proj1 Hb)) as Hhi. subst lz.
  assert (E32 : 2 ^ 32 = 2 ^ bitlen b * 2 ^ (32 - bitlen b)) by (rewrite <- Z.pow_add_r by lia; f_equal; lia).
  assert (E31 : 2 ^ 31 = 2 ^ (bitlen b - 1) * 2 ^ (32 - bitlen b)) by (rewrite <- Z.pow_add_r by lia; f_equal; lia).
  assert (0 < 2 ^ (32 - bitlen b)) by (apply Z.pow_pos_nonneg; lia).
  rewrite E32, E31. split; [apply Z.mul_le_mono_nonneg_r; lia | apply Z.mul_lt_mono_pos_r; lia].
Qed.

Lemma u32_zone_eq b : 0 < b < 2 ^ 32 -> u32_zone b = b * 2 ^ (32 - bitlen b) - 1.
Proof.
  intro Hb. pose proof (shifted_range b Hb) as H. cbv zeta in H. unfold u32_zone.
  rewrite (Z.mod_small (b * 2 ^ (32 - bitlen b))) by lia. apply Z.mod_small. lia.
Qed.

Definition block_start (ubound j : Z) : Z := (j * 2 ^ 32 + ubound - 1) / ubound.

Lemma block_start_spec ub j v : 0 < ub -> (j * 2 ^ 32 <= v * ub <-> block_start ub j <= v).
Proof.
  intro H. unfold block_start. split; intro A.
  - apply Z.lt_succ_r. apply Z.div_lt_upper_bound; [lia|]. nia.
  - assert (B : j * 2 ^ 32 + ub - 1 < ub * (block_start ub j + 1)).
    { unfold block_start. pose proof (Z.mul_succ_div_gt (j * 2 ^ 32 + ub - 1) ub H). lia. }
    unfold block_start in B. nia.
Qed.

Theorem u32_attempt_block : forall ub j v, 0 < ub < 2 ^ 32 -> 0 <= v < 2 ^ 32 -> 0 <= j ->
  let lz := 32 - bitlen ub in
  (((v * ub) mod 2 ^ 32 <=? u32_zone ub) = true /\ v * ub / 2 ^ 32 = j)
  <-> (block_start ub j <= v < block_start ub j + 2 ^ lz).
Proof.
  intros ub j v Hub Hv Hj lz. rewrite (u32_zone_eq ub Hub), Z.leb_le. fold lz.
  pose proof (shifted_range ub Hub) as Hs. cbv zeta in Hs. fold lz in Hs.
  assert (B : block_start ub j <= v < block_start ub j + 2 ^ lz
              <-> j * 2 ^ 32 <= v * ub < j * 2 ^ 32 + ub * 2 ^ lz).
  { pose proof (block_start_spec ub j v (proj1 Hub)) as S1.
    pose proof (block_start_spec ub j (v - 2 ^ lz) (proj1 Hub)) as S2. nia. }
  rewrite B.
  pose proof (Z.div_mod (v * ub) (2 ^ 32) ltac:(lia)) as DM.
  pose proof (Z.mod_pos_bound (v * ub) (2 ^ 32) ltac:(lia)) as MB.
  split.
  - intros [Hlo <-]. lia.
  - intros [Hlo Hhi].
    assert (Ej : v * ub / 2 ^ 32 = j) by (symmetry; apply (Z.div_unique _ _ _ (v * ub - j * 2 ^ 32)); lia).
    rewrite Ej in DM. lia.
Qed.
Print Assumptions u32_attempt_block.

(* every block lies inside the 32-bit word range and distinct results have disjoint blocks (they are consecutive
   intervals of equal length 2^lz): all ubound results are equally likely, ubound * 2^lz of the 2^32 words accept. *)
Theorem u32_blocks_in_word_range : forall ub j, 0 < ub < 2 ^ 32 -> 0 <= j < ub ->
  0 <= block_start ub j /\ block_start ub j + 2 ^ (32 - bitlen ub) <= 2 ^ 32.
Proof.
  intros ub j Hub Hj. pose proof (shifted_range ub Hub) as Hs. cbv zeta in Hs.
  split.
  - unfold block_start. apply Z.div_pos; nia.
  - (* the word 2^32 - 2^lz reaches j: (2^32 - 2^lz) * ub > 2^32 * ub - 2^32 >= j * 2^32 *)
    assert (block_start ub j <= 2 ^ 32 - 2 ^ (32 - bitlen ub)) by (apply block_start_spec; nia). lia.
Qed.

Theorem u32_blocks_disjoint : forall ub j j' v, 0 < ub < 2 ^ 32 -> 0 <= j -> 0 <= j' ->
  block_start ub j <= v < block_start ub j + 2 ^ (32 - bitlen ub) ->
  block_start ub j' <= v < block_start ub j' + 2 ^ (32 - bitlen ub) -> 0 <= v < 2 ^ 32 -> j = j'.
Proof.
  intros ub j j' v Hub Hj Hj' B1 B2 Hv.
  apply (u32_attempt_block ub j v Hub Hv Hj) in B1. apply (u32_attempt_block ub j' v Hub Hv Hj') in B2.
  destruct B1 as [_ <-]. destruct B2 as [_ <-]. reflexivity.
Qed.

Lemma take4 b0 b1 b2 b3 rest : take_n 4 (b0 :: b1 :: b2 :: b3 :: rest) = Ok ([b0; b1; b2; b3], rest).
Proof. reflexivity. Qed.

Theorem gen_index_first_word : forall f ub b0 b1 b2 b3 rest j, 0 < ub < 2 ^ 32 -> 0 <= j ->
  let v := le_int [b0; b1; b2; b3] in 0 <= v < 2 ^ 32 ->
  (block_start ub j <= v < block_start ub j + 2 ^ (32 - bitlen ub)) ->
  gen_index (S f) ub (b0 :: b1 :: b2 :: b3 :: rest) = Ok (j, rest).
Proof.
  intros f ub b0 b1 b2 b3 rest j Hub Hj v Hv Hb.
  apply (u32_attempt_block ub j v Hub Hv Hj) in Hb. destruct Hb as [Hacc Hres].
  cbn [gen_index]. rewrite take4. fold v. cbv zeta. rewrite Hacc, Hres. reflexivity.
Qed.
Print Assumptions gen_index_first_word.

Theorem gen_index_rejected_word : forall f ub b0 b1 b2 b3 rest, 0 < ub < 2 ^ 32 ->
  let v := le_int [b0; b1; b2; b3] in 0 <= v < 2 ^ 32 ->
  (forall j, 0 <= j < ub -> ~ (block_start ub j <= v < block_start ub j + 2 ^ (32 - bitlen ub))) ->
  gen_index (S f) ub (b0 :: b1 :: b2 :: b3 :: rest) = gen_index f ub rest.
Proof.
  intros f ub b0 b1 b2 b3 rest Hub v Hv Hno.
  cbn [gen_index]. rewrite take4. fold v. cbv zeta.
  destruct ((v * ub) mod 2 ^ 32 <=? u32_zone ub) eqn:Ez; [exfalso|reflexivity].
  set (j := v * ub / 2 ^ 32).
  assert (Hj : 0 <= j < ub).
  { subst j. split; [apply Z.div_pos; nia|]. apply Z.div_lt_upper_bound; nia. }
  apply (Hno j Hj). apply (u32_attempt_block ub j v Hub Hv (proj1 Hj)). split; [exact Ez|reflexivity].
Qed.

(* kernel-computed sanity: ubound = 3: lz = 30, three blocks of 2^30 words, 2^30 words rejected *)
Example u32_blocks_for_3 :
  map (block_start 3) [0; 1; 2] = [0; 1431655766; 2863311531] /\ 2 ^ (32 - bitlen 3) = 1073741824.
Proof. vm_compute. split; reflexivity. Qed.
