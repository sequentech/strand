(* Proofs/Base64P.v — facts about Model/Base64.v: the unpadded standard base64 codec is a bijection
   between byte strings and the set of strings the decoder accepts (round trip, injectivity,
   canonicity: padding / non-alphabet bytes / length 1 mod 4 / non-zero trailing bits are all
   rejected), output alphabet and length, no panic; and the signature wrapper built on it: byte and
   string round trips preserve keys and signatures exactly, sign/verify survives any such round
   trip given a complete underlying scheme, and the wrapper is extensional in the underlying
   library (two frontends with the same primitives are the same functions). *)
From Coq Require Import ZArith List Lia.
From Strand Require Import Model.Outcome Model.Codec Model.Base64 Proofs.CodecP.
Import ListNotations.
Open Scope Z_scope.

Lemma range_check (N : nat) (P : Z -> bool) :
  forallb (fun n => P (Z.of_nat n)) (seq 0 N) = true ->
  forall x, 0 <= x < Z.of_nat N -> P x = true.
Proof.
  intros H x Hx. rewrite forallb_forall in H.
  specialize (H (Z.to_nat x)). rewrite Z2Nat.id in H by lia.
  apply H, in_seq. lia.
Qed.

Definition b64_char (c : Z) : Prop :=
  65 <= c <= 90 \/ 97 <= c <= 122 \/ 48 <= c <= 57 \/ c = 43 \/ c = 47.

Lemma unsym_sym x : 0 <= x < 64 -> unsym (sym x) = Some x.
Proof.
  intro Hx.
  pose proof (range_check 64
    (fun x => match unsym (sym x) with Some y => y =? x | None => false end)
    ltac:(vm_compute; reflexivity) x ltac:(simpl; lia)) as H.
  cbv beta in H. destruct (unsym (sym x)); [|discriminate]. f_equal. lia.
Qed.

Lemma unsym_some c x : unsym c = Some x -> 0 <= x < 64 /\ sym x = c /\ b64_char c.
Proof.
  intro H.
  (* the range of [c] and of [x] are read off the definition; that [c] is the [x]-th entry of the table is a
     sweep over the byte values *)
  assert (Hc : b64_char c /\ 0 <= x < 64).
  { unfold unsym in H. unfold b64_char.
    repeat match type of H with
           | (if ?b then _ else _) = _ => destruct b eqn:?
           end; try discriminate; injection H as <-; lia. }
  destruct Hc as [Hc Hx]. split; [exact Hx|]. split; [|exact Hc].
  pose proof (range_check 256
    (fun c => match unsym c with Some x => sym x =? c | None => true end)
    ltac:(vm_compute; reflexivity) c ltac:(unfold b64_char in Hc; simpl; lia)) as Hf.
  cbv beta in Hf. rewrite H in Hf. lia.
Qed.

Lemma sym_char x : 0 <= x < 64 -> b64_char (sym x).
Proof. intro Hx. apply (unsym_some (sym x) x), unsym_sym, Hx. Qed.

Lemma unsym_pad : unsym 61 = None.
Proof. reflexivity. Qed.

Local Ltac dm := Z.div_mod_to_equations; lia.

Lemma dec4_enc3 a b c :
  0 <= a < 256 -> 0 <= b < 256 -> 0 <= c < 256 ->
  dec4 (sym (a / 4)) (sym ((a mod 4) * 16 + b / 16)) (sym ((b mod 16) * 4 + c / 64))
       (sym (c mod 64)) = Some [a; b; c].
Proof.
  intros Ha Hb Hc. unfold dec4.
  rewrite !unsym_sym by dm.
  f_equal. f_equal; [dm|]. f_equal; [dm|]. f_equal. dm.
Qed.

Lemma dec3_enc2 a b :
  0 <= a < 256 -> 0 <= b < 256 ->
  dec3 (sym (a / 4)) (sym ((a mod 4) * 16 + b / 16)) (sym ((b mod 16) * 4)) = Some [a; b].
Proof.
  intros Ha Hb. unfold dec3.
  rewrite !unsym_sym by dm.
  replace (b mod 16 * 4 mod 4 =? 0) with true by (symmetry; apply Z.eqb_eq; dm).
  f_equal. f_equal; [dm|]. f_equal. dm.
Qed.

Lemma dec2_enc1 a :
  0 <= a < 256 ->
  dec2 (sym (a / 4)) (sym ((a mod 4) * 16)) = Some [a].
Proof.
  intros Ha. unfold dec2.
  rewrite !unsym_sym by dm.
  replace (a mod 4 * 16 mod 16 =? 0) with true by (symmetry; apply Z.eqb_eq; dm).
  f_equal. f_equal. dm.
Qed.

Lemma dec4_some c1 c2 c3 c4 g :
  dec4 c1 c2 c3 c4 = Some g ->
  exists a b c, g = [a; b; c] /\ 0 <= a < 256 /\ 0 <= b < 256 /\ 0 <= c < 256 /\
                enc3 a b c = [c1; c2; c3; c4].
Proof.
  unfold dec4. intro H.
  destruct (unsym c1) as [w|] eqn:E1; [|discriminate].
  destruct (unsym c2) as [x|] eqn:E2; [|discriminate].
  destruct (unsym c3) as [y|] eqn:E3; [|discriminate].
  destruct (unsym c4) as [z|] eqn:E4; [|discriminate].
  apply unsym_some in E1 as (Hw & <- & _). apply unsym_some in E2 as (Hx & <- & _).
  apply unsym_some in E3 as (Hy & <- & _). apply unsym_some in E4 as (Hz & <- & _).
  injection H as <-. do 3 eexists. split; [reflexivity|].
  split; [dm|]. split; [dm|]. split; [dm|].
  unfold enc3. f_equal; [f_equal; dm|]. f_equal; [f_equal; dm|]. f_equal; [f_equal; dm|].
  f_equal. f_equal. dm.
Qed.

Lemma dec3_some c1 c2 c3 g : dec3 c1 c2 c3 = Some g -> b64_encode g = [c1; c2; c3] /\ bytes_ok g.
Proof.
  unfold dec3. intro H.
  destruct (unsym c1) as [w|] eqn:E1; [|discriminate].
  destruct (unsym c2) as [x|] eqn:E2; [|discriminate].
  destruct (unsym c3) as [y|] eqn:E3; [|discriminate].
  destruct (Z.eqb_spec (y mod 4) 0) as [Hy0|]; [|discriminate].
  apply unsym_some in E1 as (Hw & <- & _). apply unsym_some in E2 as (Hx & <- & _).
  apply unsym_some in E3 as (Hy & <- & _).
  injection H as <-. split; [|repeat constructor; dm].
  cbn [b64_encode]. unfold enc2. f_equal; [f_equal; dm|]. f_equal; [f_equal; dm|]. f_equal. f_equal. dm.
Qed.

Lemma dec2_some c1 c2 g : dec2 c1 c2 = Some g -> b64_encode g = [c1; c2] /\ bytes_ok g.
Proof.
  unfold dec2. intro H.
  destruct (unsym c1) as [w|] eqn:E1; [|discriminate].
  destruct (unsym c2) as [x|] eqn:E2; [|discriminate].
  destruct (Z.eqb_spec (x mod 16) 0) as [Hx0|]; [|discriminate].
  apply unsym_some in E1 as (Hw & <- & _). apply unsym_some in E2 as (Hx & <- & _).
  injection H as <-. split; [|repeat constructor; dm].
  cbn [b64_encode]. unfold enc1. f_equal; [f_equal; dm|]. f_equal. f_equal. dm.
Qed.

Lemma bytes_ind3 (P : bytes -> Prop) :
  P [] -> (forall a, 0 <= a < 256 -> P [a]) -> (forall a b, 0 <= a < 256 -> 0 <= b < 256 -> P [a; b]) ->
  (forall a b c r, 0 <= a < 256 -> 0 <= b < 256 -> 0 <= c < 256 -> bytes_ok r -> P r -> P (a :: b :: c :: r)) ->
  forall bs, bytes_ok bs -> P bs.
Proof.
  intros H0 H1 H2 H3. fix IH 1. intros [|a [|b [|c r]]] H.
  - apply H0.
  - apply Forall_cons_iff in H as [Ha _]. apply H1, Ha.
  - apply Forall_cons_iff in H as [Ha [Hb _]%Forall_cons_iff]. apply H2; assumption.
  - apply Forall_cons_iff in H as [Ha [Hb [Hc Hr]%Forall_cons_iff]%Forall_cons_iff].
    apply H3; try assumption. apply IH, Hr.
Qed.

Lemma list_ind4 {A} (P : list A -> Prop) :
  P [] -> (forall a, P [a]) -> (forall a b, P [a; b]) -> (forall a b c, P [a; b; c]) ->
  (forall a b c d r, P r -> P (a :: b :: c :: d :: r)) -> forall l, P l.
Proof.
  intros H0 H1 H2 H3 H4.
  fix IH 1. intros [|a [|b [|c [|d r]]]]; [apply H0|apply H1|apply H2|apply H3|apply H4, IH].
Qed.

Lemma b64_encode_3 a b c r : b64_encode (a :: b :: c :: r) = enc3 a b c ++ b64_encode r.
Proof. reflexivity. Qed.

Lemma b64_decode_4 c1 c2 c3 c4 r :
  b64_decode (c1 :: c2 :: c3 :: c4 :: r) =
  match dec4 c1 c2 c3 c4 with
  | Some g => bind (b64_decode r) (fun l => Ok (g ++ l))
  | None => Err
  end.
Proof. reflexivity. Qed.

Theorem b64_round_trip : forall bs, bytes_ok bs -> b64_decode (b64_encode bs) = Ok bs.
Proof.
  induction 1 as [|a Ha|a b Ha Hb|a b c r Ha Hb Hc Hr IH] using bytes_ind3.
  - reflexivity.
  - cbn [b64_encode]. unfold enc1. cbn [b64_decode]. rewrite dec2_enc1 by exact Ha. reflexivity.
  - cbn [b64_encode]. unfold enc2. cbn [b64_decode]. rewrite dec3_enc2 by assumption. reflexivity.
  - rewrite b64_encode_3. unfold enc3. cbn [app].
    rewrite b64_decode_4, dec4_enc3, IH by assumption. reflexivity.
Qed.
Print Assumptions b64_round_trip.

Theorem b64_encode_injective : forall a b,
  bytes_ok a -> bytes_ok b -> b64_encode a = b64_encode b -> a = b.
Proof.
  intros a b Ha Hb E. apply b64_round_trip in Ha, Hb. rewrite E in Ha. congruence.
Qed.
Print Assumptions b64_encode_injective.

(* every output symbol is one of A-Z a-z 0-9 + / (in particular never '=', never whitespace) *)
Theorem b64_encode_alphabet : forall bs, bytes_ok bs -> Forall b64_char (b64_encode bs).
Proof.
  induction 1 as [|a Ha|a b Ha Hb|a b c r Ha Hb Hc Hr IH] using bytes_ind3.
  - constructor.
  - cbn [b64_encode]. unfold enc1. repeat (apply Forall_cons; [apply sym_char; dm|]); apply Forall_nil.
  - cbn [b64_encode]. unfold enc2. repeat (apply Forall_cons; [apply sym_char; dm|]); apply Forall_nil.
  - rewrite b64_encode_3. apply Forall_app. split; [|exact IH].
    unfold enc3. repeat (apply Forall_cons; [apply sym_char; dm|]); apply Forall_nil.
Qed.
Print Assumptions b64_encode_alphabet.

Theorem b64_encode_length : forall bs,
  length (b64_encode bs) = ((4 * length bs + 2) / 3)%nat.
Proof.
  fix IH 1. intros [|a [|b [|c r]]]; try reflexivity.
  rewrite b64_encode_3, app_length, IH. cbn [length enc3].
  replace (4 * S (S (S (length r))) + 2)%nat with ((4 * length r + 2) + 4 * 3)%nat by lia.
  rewrite Nat.div_add by lia. lia.
Qed.
Print Assumptions b64_encode_length.

Theorem b64_decode_no_panic : forall s, b64_decode s <> Panic.
Proof.
  induction s as [|c1|c1 c2|c1 c2 c3|c1 c2 c3 c4 r IH] using list_ind4.
  - discriminate.
  - discriminate.
  - cbn [b64_decode]. destruct (dec2 c1 c2); discriminate.
  - cbn [b64_decode]. destruct (dec3 c1 c2 c3); discriminate.
  - rewrite b64_decode_4. destruct (dec4 c1 c2 c3 c4); [|discriminate]. apply bind_np; [exact IH|discriminate].
Qed.
Print Assumptions b64_decode_no_panic.

(* decoding accepts ONLY the canonical unpadded encoding of a byte string: anything with padding,
   a byte outside the alphabet, a length of 1 mod 4 or non-zero trailing bits is not in the image
   of [b64_encode] and is therefore refused *)
Theorem b64_decode_canonical : forall s bs,
  b64_decode s = Ok bs -> b64_encode bs = s /\ bytes_ok bs.
Proof.
  induction s as [|c1|c1 c2|c1 c2 c3|c1 c2 c3 c4 r IH] using list_ind4; intros bs H.
  - injection H as <-. split; [reflexivity|constructor].
  - discriminate.
  - cbn [b64_decode] in H. destruct (dec2 c1 c2) as [g|] eqn:E; [|discriminate].
    injection H as <-. exact (dec2_some c1 c2 g E).
  - cbn [b64_decode] in H. destruct (dec3 c1 c2 c3) as [g|] eqn:E; [|discriminate].
    injection H as <-. exact (dec3_some c1 c2 c3 g E).
  - rewrite b64_decode_4 in H. destruct (dec4 c1 c2 c3 c4) as [g|] eqn:E; [|discriminate].
    destruct (b64_decode r) as [l| |] eqn:El; try discriminate.
    injection H as <-. apply dec4_some in E as (a & b & c & -> & Ha & Hb & Hc & E).
    destruct (IH l eq_refl) as [IH1 IH2]. cbn [app].
    split.
    + rewrite b64_encode_3, E, IH1. reflexivity.
    + repeat (constructor; [lia|]). exact IH2.
Qed.
Print Assumptions b64_decode_canonical.

Corollary b64_decode_ok_iff : forall s bs,
  b64_decode s = Ok bs <-> (bytes_ok bs /\ b64_encode bs = s).
Proof.
  intros s bs. split.
  - intro H. apply b64_decode_canonical in H. tauto.
  - intros [H <-]. apply b64_round_trip, H.
Qed.
Print Assumptions b64_decode_ok_iff.

Corollary b64_decode_injective : forall s t bs,
  b64_decode s = Ok bs -> b64_decode t = Ok bs -> s = t.
Proof.
  intros s t bs Hs Ht. apply b64_decode_canonical in Hs as [<- _].
  apply b64_decode_canonical in Ht as [<- _]. reflexivity.
Qed.
Print Assumptions b64_decode_injective.

Theorem b64_rejects_non_alphabet : forall s c, In c s -> ~ b64_char c -> b64_decode s = Err.
Proof.
  intros s c Hin Hc.
  destruct (b64_decode s) as [bs| |] eqn:E; [|reflexivity|exfalso; eapply b64_decode_no_panic, E].
  exfalso. apply b64_decode_canonical in E as [<- Hok].
  apply b64_encode_alphabet in Hok. rewrite Forall_forall in Hok. apply Hc, Hok, Hin.
Qed.
Print Assumptions b64_rejects_non_alphabet.

Theorem b64_rejects_padding : forall s, In 61 s -> b64_decode s = Err.            (* '=' *)
Proof.
  intros s H. apply (b64_rejects_non_alphabet s 61 H). unfold b64_char. lia.
Qed.
Print Assumptions b64_rejects_padding.

Theorem b64_rejects_len1mod4 : forall s, (length s mod 4 = 1)%nat -> b64_decode s = Err.
Proof.
  induction s as [|c1|c1 c2|c1 c2 c3|c1 c2 c3 c4 r IH] using list_ind4; intro H;
    try (cbn in H; discriminate); try reflexivity.
  rewrite b64_decode_4.
  assert (Hr : (length r mod 4 = 1)%nat).
  { cbn [length] in H.
    replace (S (S (S (S (length r))))) with (length r + 1 * 4)%nat in H by lia.
    rewrite Nat.mod_add in H by lia. exact H. }
  rewrite (IH Hr). destruct (dec4 c1 c2 c3 c4); reflexivity.
Qed.
Print Assumptions b64_rejects_len1mod4.

Theorem b64_rejects_trailing_bits2 : forall c1 c2 x,
  unsym c2 = Some x -> x mod 16 <> 0 -> b64_decode [c1; c2] = Err.
Proof.
  intros c1 c2 x Hx Hn. cbn [b64_decode]. unfold dec2. rewrite Hx.
  destruct (unsym c1); [|reflexivity].
  destruct (Z.eqb_spec (x mod 16) 0); [contradiction|reflexivity].
Qed.
Print Assumptions b64_rejects_trailing_bits2.

Theorem b64_rejects_trailing_bits3 : forall c1 c2 c3 y,
  unsym c3 = Some y -> y mod 4 <> 0 -> b64_decode [c1; c2; c3] = Err.
Proof.
  intros c1 c2 c3 y Hy Hn. cbn [b64_decode]. unfold dec3. rewrite Hy.
  destruct (unsym c1); [|reflexivity]. destruct (unsym c2); [|reflexivity].
  destruct (Z.eqb_spec (y mod 4) 0); [contradiction|reflexivity].
Qed.
Print Assumptions b64_rejects_trailing_bits3.

Section SigP.
  Variable sk_valid pk_valid sig_valid : bytes -> bool.
  Variable pk_of_sk : bytes -> bytes.
  Variable sign : bytes -> bytes -> bytes.
  Variable verify : bytes -> bytes -> bytes -> bool.

  Local Notation kvalid := (kvalid sk_valid pk_valid sig_valid).
  Local Notation w_deserialize := (w_deserialize sk_valid pk_valid sig_valid).
  Local Notation w_serialize := (w_serialize sk_valid pk_valid sig_valid).
  Local Notation w_to_string := (w_to_string sk_valid pk_valid sig_valid).
  Local Notation w_from_string := (w_from_string sk_valid pk_valid sig_valid).
  Local Notation w_public_key := (w_public_key sk_valid pk_valid sig_valid pk_of_sk).
  Local Notation w_sign := (w_sign sk_valid pk_valid sig_valid sign).
  Local Notation w_verify := (w_verify sk_valid pk_valid sig_valid verify).

  Lemma w_deserialize_ok k bs v :
    w_deserialize k bs = Ok v <-> (v = bs /\ length bs = klen k /\ kvalid k bs = true).
  Proof.
    unfold Base64.w_deserialize.
    destruct (Nat.eqb_spec (length bs) (klen k)) as [Hl|Hl].
    - destruct (kvalid k bs) eqn:Hv; split.
      + intro H. injection H as <-. auto.
      + intros (-> & _ & _). reflexivity.
      + discriminate.
      + intros (_ & _ & H). discriminate.
    - split; [discriminate|]. intros (_ & H & _). contradiction.
  Qed.

  Lemma w_deserialize_intro k bs :
    length bs = klen k -> kvalid k bs = true -> w_deserialize k bs = Ok bs.
  Proof. intros Hl Hv. apply w_deserialize_ok. auto. Qed.

  Theorem w_deserialize_no_panic : forall k bs, w_deserialize k bs <> Panic.
  Proof.
    intros k bs. unfold Base64.w_deserialize.
    destruct (length bs =? klen k)%nat; [|discriminate]. destruct (kvalid k bs); discriminate.
  Qed.

  Theorem w_bytes_round_trip : forall k bs v,
    w_deserialize k bs = Ok v -> v = bs /\ w_serialize k v = Ok bs /\ w_deserialize k v = Ok v.
  Proof.
    intros k bs v H. pose proof H as H'. apply w_deserialize_ok in H' as (-> & _ & _).
    unfold Base64.w_serialize. auto.
  Qed.

  Theorem w_deserialize_wrong_length : forall k bs,
    length bs <> klen k -> w_deserialize k bs = Err.
  Proof.
    intros k bs H. unfold Base64.w_deserialize.
    destruct (Nat.eqb_spec (length bs) (klen k)); [contradiction|reflexivity].
  Qed.

  Theorem w_string_round_trip : forall k bs,
    bytes_ok bs -> w_deserialize k bs = Ok bs ->
    exists s, w_to_string k bs = Ok s /\ w_from_string k s = Ok bs.
  Proof.
    intros k bs Hok H. exists (b64_encode bs).
    unfold Base64.w_to_string, Base64.w_from_string. rewrite H. cbn [bind].
    rewrite b64_round_trip by exact Hok. cbn [bind]. auto.
  Qed.

  Theorem w_to_string_ok : forall k bs s,
    w_to_string k bs = Ok s ->
    s = b64_encode bs /\ length bs = klen k /\ kvalid k bs = true /\
    length s = ((4 * klen k + 2) / 3)%nat.
  Proof.
    intros k bs s H. unfold Base64.w_to_string in H.
    apply bind_ok in H as (v & Hv & H). injection H as <-.
    apply w_deserialize_ok in Hv as (-> & Hl & Hv).
    repeat split; auto. rewrite b64_encode_length, Hl. reflexivity.
  Qed.

  Theorem w_from_string_sound : forall k s bs,
    w_from_string k s = Ok bs ->
    length bs = klen k /\ kvalid k bs = true /\ b64_encode bs = s /\ bytes_ok bs /\
    w_to_string k bs = Ok s.
  Proof.
    intros k s bs H. unfold Base64.w_from_string in H.
    apply bind_ok in H as (v & Hd & H). pose proof H as H'.
    apply w_deserialize_ok in H as (-> & Hl & Hv).
    apply b64_decode_canonical in Hd as [He Hok].
    repeat split; auto. unfold Base64.w_to_string. rewrite H'. cbn [bind]. rewrite He.
    reflexivity.
  Qed.

  Theorem w_from_string_no_panic : forall k s, w_from_string k s <> Panic.
  Proof.
    intros k s. apply bind_np; [apply b64_decode_no_panic|apply w_deserialize_no_panic].
  Qed.

  Theorem w_from_string_injective : forall k s t bs,
    w_from_string k s = Ok bs -> w_from_string k t = Ok bs -> s = t.
  Proof.
    intros k s t bs Hs Ht. apply w_from_string_sound in Hs as (_ & _ & <- & _).
    apply w_from_string_sound in Ht as (_ & _ & <- & _). reflexivity.
  Qed.

  Theorem w_from_string_rejects_padding : forall k s, In 61 s -> w_from_string k s = Err.
  Proof.
    intros k s H. unfold Base64.w_from_string. rewrite b64_rejects_padding by exact H.
    reflexivity.
  Qed.

  Theorem w_from_string_length : forall k s bs,
    w_from_string k s = Ok bs -> length s = match k with KSig => 86%nat | _ => 43%nat end.
  Proof.
    intros k s bs H. apply w_from_string_sound in H as (Hl & _ & <- & _).
    rewrite b64_encode_length, Hl. destruct k; reflexivity.
  Qed.

  (* What the wrapper needs of the library beneath it. For the executable Ed25519 model [verify_complete] is what
     Proofs/Ed25519Complete.ed_sign_verify_zebra and ed_sign_verify_dalek prove (there for every seed, on the model's
     outcome type); this section is not instantiated with them, and Properties/C20.v states both results side by side. *)
  Section Complete.
    Hypothesis pk_of_sk_valid : forall sk,
      length sk = 32%nat -> sk_valid sk = true ->
      length (pk_of_sk sk) = 32%nat /\ pk_valid (pk_of_sk sk) = true /\ bytes_ok (pk_of_sk sk).
    Hypothesis sign_valid : forall sk m,
      length sk = 32%nat -> sk_valid sk = true ->
      length (sign sk m) = 64%nat /\ sig_valid (sign sk m) = true /\ bytes_ok (sign sk m).
    Hypothesis verify_complete : forall sk m,
      length sk = 32%nat -> sk_valid sk = true ->
      verify (pk_of_sk sk) (sign sk m) m = true.

    Lemma w_held_key sk msg : w_deserialize KSk sk = Ok sk ->
      w_public_key sk = Ok (pk_of_sk sk) /\ w_sign sk msg = Ok (sign sk msg) /\
      w_deserialize KPk (pk_of_sk sk) = Ok (pk_of_sk sk) /\ bytes_ok (pk_of_sk sk) /\
      w_deserialize KSig (sign sk msg) = Ok (sign sk msg) /\ bytes_ok (sign sk msg) /\
      w_verify (pk_of_sk sk) (sign sk msg) msg = Ok true.
    Proof.
      intro H. pose proof H as H'. apply w_deserialize_ok in H' as (_ & Hl & Hv). cbn in Hl, Hv.
      destruct (pk_of_sk_valid sk Hl Hv) as (Hpl & Hpv & Hpok).
      destruct (sign_valid sk msg Hl Hv) as (Hsl & Hsv & Hsok).
      pose proof (w_deserialize_intro KPk _ Hpl Hpv) as Hp.
      pose proof (w_deserialize_intro KSig _ Hsl Hsv) as Hs.
      unfold Base64.w_public_key, Base64.w_sign, Base64.w_verify. rewrite H, Hp, Hs. cbn [bind].
      rewrite verify_complete by assumption. auto 8.
    Qed.

    Theorem w_sign_verify : forall sk msg,
      w_deserialize KSk sk = Ok sk ->
      exists sg pk, w_sign sk msg = Ok sg /\ w_public_key sk = Ok pk /\
                    w_verify pk sg msg = Ok true.
    Proof.
      intros sk msg H. destruct (w_held_key sk msg H) as (Hpk & Hsg & _ & _ & _ & _ & Hv). eauto.
    Qed.

    Theorem w_sign_verify_after_round_trips : forall sk msg,
      bytes_ok sk -> w_deserialize KSk sk = Ok sk ->
      exists sg pks sks sgs,
        w_sign sk msg = Ok sg /\
        w_to_string KPk (pk_of_sk sk) = Ok pks /\
        w_to_string KSk sk = Ok sks /\
        w_to_string KSig sg = Ok sgs /\
        exists pk' sk' sg',
          w_from_string KPk pks = Ok pk' /\ w_from_string KSk sks = Ok sk' /\
          w_from_string KSig sgs = Ok sg' /\
          sk' = sk /\ pk' = pk_of_sk sk /\ sg' = sg /\
          w_deserialize KSk sk' = Ok sk' /\ w_deserialize KPk pk' = Ok pk' /\
          w_deserialize KSig sg' = Ok sg' /\
          w_sign sk' msg = Ok sg /\ w_verify pk' sg' msg = Ok true.
    Proof.
      intros sk msg Hok H. destruct (w_held_key sk msg H) as (_ & Hsign & Hp & Hpok & Hs & Hsok & Hv).
      destruct (w_string_round_trip KPk _ Hpok Hp) as (pks & Hpks & Hpks').
      destruct (w_string_round_trip KSk _ Hok H) as (sks & Hsks & Hsks').
      destruct (w_string_round_trip KSig _ Hsok Hs) as (sgs & Hsgs & Hsgs').
      exists (sign sk msg), pks, sks, sgs. repeat (split; [assumption|]).
      exists (pk_of_sk sk), sk, (sign sk msg). repeat (split; [assumption || reflexivity|]). exact Hv.
    Qed.
  End Complete.
End SigP.

Print Assumptions w_deserialize_no_panic.
Print Assumptions w_deserialize_wrong_length.
Print Assumptions w_bytes_round_trip.
Print Assumptions w_string_round_trip.
Print Assumptions w_to_string_ok.
Print Assumptions w_from_string_sound.
Print Assumptions w_from_string_no_panic.
Print Assumptions w_from_string_injective.
Print Assumptions w_from_string_rejects_padding.
Print Assumptions w_from_string_length.
Print Assumptions w_sign_verify.
Print Assumptions w_sign_verify_after_round_trips.

(* Two frontends (ed25519-zebra / ed25519-dalek) are two instantiations of the same wrapper
   functions; if their primitives agree pointwise, every wrapper operation agrees on every input. *)
Theorem w_frontends_agree :
  forall skv pkv sgv p2s sgn vfy skv' pkv' sgv' p2s' sgn' vfy',
    (forall b, skv b = skv' b) -> (forall b, pkv b = pkv' b) -> (forall b, sgv b = sgv' b) ->
    (forall b, p2s b = p2s' b) -> (forall s m, sgn s m = sgn' s m) ->
    (forall p s m, vfy p s m = vfy' p s m) ->
    (forall k bs, w_deserialize skv pkv sgv k bs = w_deserialize skv' pkv' sgv' k bs) /\
    (forall k bs, w_to_string skv pkv sgv k bs = w_to_string skv' pkv' sgv' k bs) /\
    (forall k s, w_from_string skv pkv sgv k s = w_from_string skv' pkv' sgv' k s) /\
    (forall sk, w_public_key skv pkv sgv p2s sk = w_public_key skv' pkv' sgv' p2s' sk) /\
    (forall sk m, w_sign skv pkv sgv sgn sk m = w_sign skv' pkv' sgv' sgn' sk m) /\
    (forall pk sg m, w_verify skv pkv sgv vfy pk sg m = w_verify skv' pkv' sgv' vfy' pk sg m).
Proof.
  intros skv pkv sgv p2s sgn vfy skv' pkv' sgv' p2s' sgn' vfy' Hsk Hpk Hsg Hp Hs Hv.
  assert (D : forall k bs, w_deserialize skv pkv sgv k bs = w_deserialize skv' pkv' sgv' k bs).
  { intros k bs. unfold w_deserialize. destruct k; cbn [kvalid]; rewrite ?Hsk, ?Hpk, ?Hsg;
      reflexivity. }
  split; [exact D|].
  split. { intros k bs. unfold w_to_string. rewrite D. reflexivity. }
  split. { intros k s. unfold w_from_string. destruct (b64_decode s); cbn [bind]; auto. }
  split. { intros sk. unfold w_public_key. rewrite D.
           destruct (w_deserialize skv' pkv' sgv' KSk sk); cbn [bind]; rewrite ?Hp; reflexivity. }
  split. { intros sk m. unfold w_sign. rewrite D.
           destruct (w_deserialize skv' pkv' sgv' KSk sk); cbn [bind]; rewrite ?Hs; reflexivity. }
  intros pk sg m. unfold w_verify. rewrite !D.
  destruct (w_deserialize skv' pkv' sgv' KPk pk); cbn [bind]; try reflexivity.
  destruct (w_deserialize skv' pkv' sgv' KSig sg); cbn [bind]; rewrite ?Hv; reflexivity.
Qed.
Print Assumptions w_frontends_agree.
