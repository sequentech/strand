(* Proofs/ParP.v — every schedule computes what the sequential iterator computes. *)
From Coq Require Import List.
From Strand Require Import Model.Outcome Model.Par.
Import ListNotations.

Theorem par_map_any_schedule : forall {A B} (f : A -> B) (s : sched) (l : list A), par_map f s l = map f l.
Proof.
  intros A B f s. induction s as [|k a IHa b IHb]; intro l; cbn [par_map]; [reflexivity|].
  rewrite IHa, IHb, <- map_app, firstn_skipn. reflexivity.
Qed.

Theorem par_mapi_any_schedule : forall {A B} (f : nat -> A -> B) (s : sched) (l : list A),
  par_mapi f s l = map (fun ia => f (fst ia) (snd ia)) (combine (seq 0 (length l)) l).
Proof. intros. unfold par_mapi. apply par_map_any_schedule. Qed.

(* What a caller can rely on is the successful value, if there is one: which failure is reported depends
   on the schedule. [join_res] and the sequential [mapM] combine successful values in the same way. *)
Definition ok_val {X} (o : outcome X) : option X := match o with Ok x => Some x | _ => None end.

Definition app_val {B} (x y : option (list B)) : option (list B) :=
  match x, y with Some a, Some b => Some (a ++ b) | _, _ => None end.

Lemma ok_val_iff {X} (o : outcome X) x : o = Ok x <-> ok_val o = Some x.
Proof. destruct o; cbn [ok_val]; split; congruence. Qed.

Lemma is_ok_val {X} (o : outcome X) : is_ok o = if ok_val o then true else false.
Proof. destruct o; reflexivity. Qed.

Lemma ok_val_join {B} (x y : outcome (list B)) : ok_val (join_res x y) = app_val (ok_val x) (ok_val y).
Proof. destruct x, y; reflexivity. Qed.

Lemma ok_val_mapM_app {A B} (f : A -> outcome B) l1 l2 :
  ok_val (mapM f (l1 ++ l2)) = app_val (ok_val (mapM f l1)) (ok_val (mapM f l2)).
Proof. rewrite mapM_app. destruct (mapM f l1), (mapM f l2); reflexivity. Qed.

Lemma par_mapM_ok_val {A B} (f : A -> outcome B) (s : sched) (l : list A) :
  ok_val (par_mapM f s l) = ok_val (mapM f l).
Proof.
  revert l. induction s as [|k a IHa b IHb]; intro l; cbn [par_mapM]; [reflexivity|].
  rewrite ok_val_join, IHa, IHb, <- ok_val_mapM_app, firstn_skipn. reflexivity.
Qed.

Theorem par_mapM_ok_iff : forall {A B} (f : A -> outcome B) (s : sched) (l : list A) (ys : list B),
  par_mapM f s l = Ok ys <-> mapM f l = Ok ys.
Proof. intros. rewrite !ok_val_iff, par_mapM_ok_val. reflexivity. Qed.

(* a failure in the sequential run is a failure under every schedule (possibly a different one of the failures) *)
Corollary par_mapM_fails_iff : forall {A B} (f : A -> outcome B) (s : sched) (l : list A),
  is_ok (par_mapM f s l) = is_ok (mapM f l).
Proof. intros. rewrite !is_ok_val, par_mapM_ok_val. reflexivity. Qed.

Theorem par_mapM_no_panic : forall {A B} (f : A -> outcome B) (s : sched) (l : list A),
  (forall a, f a <> Panic) -> par_mapM f s l <> Panic.
Proof.
  intros A B f s. induction s as [|k a IHa b IHb]; intros l Hf; cbn [par_mapM].
  - apply mapM_np. exact Hf.
  - specialize (IHa (firstn k l) Hf). specialize (IHb (skipn k l) Hf).
    destruct (par_mapM f a (firstn k l)), (par_mapM f b (skipn k l)); cbn [join_res]; congruence.
Qed.
