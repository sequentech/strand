(* Proofs/KeymakerP.v — n-of-n distributed ElGamal (Model/Keymaker.v, property C08) and verifiable
   decryption (property C07) over any lawful backend and ANY hash function: the joint key is the product
   of the shares in any order, share proofs verify, joint decryption inverts encryption for every n >= 1
   and in any order, position-wise list form, what a missing factor does; batch verification of
   decryption factors is the conjunction of the single verifications, Chaum-Pedersen special soundness
   (one exponent for both equations), decrypt under an exponent x divides by gr^x, and a false
   statement admits at most one challenge modulo q. *)
From Coq Require Import ZArith Znumtheory List Lia Permutation.
From Strand Require Import Base.Poly Model.Outcome Model.Backend Model.Zkp Model.Shuffler
  Model.Keymaker Proofs.Laws Proofs.ElgamalP Proofs.SigmaP Proofs.ListAlg.
Import ListNotations.
Open Scope Z_scope.

Section Km.
  Variable B : Backend.
  Variable mem : E B -> Prop.
  Hypothesis L : Laws B mem.
  Notation q := (b_q B).
  Notation mulp := (b_mulp B).
  Notation pow := (b_pow B).
  Notation gpow := (b_gpow B).
  Notation one := (b_one B).
  Notation g := (b_gen B).
  Notation prodp := (Shuffler.prodp B).
  Notation nonneg := (fun x : Z => 0 <= x).

  (* combine_pks and joint_dec run the same loop, `acc = first; acc = acc.mul(x).modp()`, panic on the empty
     list, and go on with the product *)
  Definition fold1 {X} (k : E B -> outcome X) (l : list (E B)) : outcome X :=
    match l with [] => Panic | x0 :: rest => k (fold_left mulp rest x0) end.

  Lemma fold1_prodp {X} (k : E B -> outcome X) l : l <> [] -> Forall mem l -> fold1 k l = k (prodp l).
  Proof.
    destruct l as [|x0 rest]; [congruence|]. intros _ HF. inversion HF; subst.
    cbn [fold1]. f_equal. rewrite (fold_mulp_acc B mem L) by assumption.
    symmetry. apply (prodp_cons B mem L); assumption.
  Qed.

  Lemma fold1_perm {X} (k : E B -> outcome X) l l' : l <> [] -> Forall mem l -> Permutation l l' ->
    fold1 k l = fold1 k l'.
  Proof.
    intros Hne HF HP. rewrite (fold1_prodp k l) by assumption.
    rewrite (fold1_prodp k l'); [|eapply perm_nonempty; eassumption|eapply Permutation_Forall; eassumption].
    now rewrite (prodp_perm B mem L l l') by assumption.
  Qed.

  Lemma fold1_pow {X} (k : E B -> outcome X) b sks : mem b -> sks <> [] -> Forall nonneg sks ->
    fold1 k (map (pow b) sks) = k (pow b (zsum sks)).
  Proof.
    intros Hb Hne HF. rewrite fold1_prodp; [|apply map_nonempty; exact Hne|apply (pow_map_mem B mem L); assumption].
    now rewrite (prodp_pow B mem L) by assumption.
  Qed.

  Theorem combine_pks_perm : forall pks pks', pks <> [] -> Forall mem pks -> Permutation pks pks' ->
    exists pk, combine_pks B pks = Ok pk /\ combine_pks B pks' = Ok pk /\ mem pk.
  Proof.
    intros pks pks' Hne HF HP. exists (prodp pks). split; [|split].
    - apply (fold1_prodp Ok); assumption.
    - change (fold1 Ok pks' = Ok (prodp pks)). rewrite <- (fold1_perm Ok pks pks') by assumption.
      apply fold1_prodp; assumption.
    - apply (prodp_mem B mem L); assumption.
  Qed.

  Lemma combine_pks_zsum sks : sks <> [] -> Forall nonneg sks ->
    combine_pks B (map (pk_of_sk B) sks) = Ok (gpow (zsum sks)).
  Proof. apply (fold1_pow Ok g). memt. Qed.

  Theorem combine_pks_sum : forall sks, sks <> [] -> Forall (fun x => 0 <= x) sks ->
    combine_pks B (map (pk_of_sk B) sks) = Ok (gpow (fold_right Z.add 0 sks)).
  Proof. exact combine_pks_zsum. Qed.

  Theorem km_share_verifies : forall sk label r, 0 <= sk -> 0 <= r ->
    let '(pk, pf) := km_share B sk label r in km_verify_share B pk pf label = true.
  Proof.
    intros sk label r Hsk Hr. unfold km_share, km_verify_share. cbv zeta.
    apply (schnorr_complete_private B mem L sk None (ctx_label label) r); [discriminate|assumption|assumption].
  Qed.

  Lemma joint_dec_factors sks c : sks <> [] -> Forall nonneg sks -> mem (gr c) ->
    joint_dec B (map (fun sk => decryption_factor B sk c) sks) c = decrypt B (zsum sks) c.
  Proof.
    intros Hne HF Hg.
    apply (fold1_pow (fun f => bind (b_divp B (mhr c) f) (fun d => Ok (b_modp B d))) (gr c)); assumption.
  Qed.

  Theorem joint_dec_correct : forall sks m r pk, sks <> [] -> Forall (fun x => 0 <= x) sks -> 0 <= r -> mem m ->
    combine_pks B (map (pk_of_sk B) sks) = Ok pk ->
    let c := encrypt_with_randomness B pk m r in
    joint_dec B (map (fun sk => decryption_factor B sk c) sks) c = Ok m.
  Proof.
    intros sks m r pk Hne HF Hr Hm Hpk c.
    rewrite combine_pks_zsum in Hpk by assumption. injection Hpk as Hpk.
    pose proof (zsum_nonneg sks HF) as Hs.
    rewrite joint_dec_factors; [|assumption|assumption|].
    - subst c pk. apply (decrypt_encrypt B mem L); assumption.
    - subst c. cbn [encrypt_with_randomness gr]. memt.
  Qed.

  Theorem joint_dec_perm : forall decs decs' c, decs <> [] -> Forall mem decs -> mem (mhr c) -> Permutation decs decs' ->
    joint_dec B decs c = joint_dec B decs' c.
  Proof.
    intros decs decs' c Hne HF _ HP.
    apply (fold1_perm (fun f => bind (b_divp B (mhr c) f) (fun d => Ok (b_modp B d)))); assumption.
  Qed.

  Theorem joint_dec_many_spec : forall (decs : list (list (E B))) cs,
    decs <> [] -> Forall (fun row => length row = length cs) decs ->
    joint_dec_many B decs cs =
    mapM (fun ic : nat * ctext B => joint_dec B (map (fun row => nth (fst ic) row one) decs) (snd ic))
         (combine (seq 0 (length cs)) cs).
  Proof.
    intros decs cs _ HF. unfold joint_dec_many. apply mapM_ext_in.
    intros [i c] Hin. cbn [fst snd]. apply in_combine_l, in_seq in Hin.
    rewrite (mapM_total _ (fun row => nth i row one)); [reflexivity|].
    intros row Hrow. rewrite Forall_forall in HF. specialize (HF row Hrow).
    rewrite (nth_error_nth' row one) by lia. reflexivity.
  Qed.

  Theorem joint_dec_missing_factor : forall sks1 x sks2 m r pk, 0 <= x -> Forall (fun x => 0 <= x) (sks1 ++ sks2) ->
    sks1 ++ sks2 <> [] -> 0 <= r -> mem m ->
    combine_pks B (map (pk_of_sk B) (sks1 ++ x :: sks2)) = Ok pk ->
    let c := encrypt_with_randomness B pk m r in
    joint_dec B (map (fun sk => decryption_factor B sk c) (sks1 ++ sks2)) c = Ok (mulp m (pow (gr c) x)) /\
    (mulp m (pow (gr c) x) = m <-> pow (gr c) x = one).
  Proof.
    intros sks1 x sks2 m r pk Hx HF Hne Hr Hm Hpk c.
    pose proof (Permutation_middle sks1 sks2 x) as HP.
    rewrite combine_pks_zsum in Hpk;
      [|destruct sks1; discriminate|apply (Permutation_Forall HP); constructor; assumption].
    injection Hpk as Hpk. rewrite <- (zsum_perm _ _ HP) in Hpk.
    rewrite zsum_cons, Z.add_comm in Hpk.
    pose proof (zsum_nonneg _ HF) as HS.
    assert (Hg : mem (gr c)) by (subst c; cbn [encrypt_with_randomness gr]; memt).
    split; [|apply (mulp_unit_iff B mem L); [assumption|memt]].
    rewrite joint_dec_factors by assumption.
    subst c pk. apply (decrypt_short_key B mem L); assumption.
  Qed.

  Theorem verify_decryption_factors_spec : forall pk cs decs proofs label,
    length decs = length proofs -> length decs = length cs ->
    verify_decryption_factors B pk cs decs proofs label =
    Ok (forallb (fun x : ctext B * (E B * cproof B) => let '(c, (d, pf)) := x in
                   verify_decryption B pk d (mhr c) (gr c) pf label) (combine cs (combine decs proofs))).
  Proof.
    intros pk cs decs proofs label H1 H2. unfold verify_decryption_factors.
    rewrite <- H1, <- H2, Nat.eqb_refl. reflexivity.
  Qed.

  Theorem verify_decryption_factors_one_bad : forall pk cs decs proofs label k c d pf,
    length decs = length proofs -> length decs = length cs ->
    nth_error cs k = Some c -> nth_error decs k = Some d -> nth_error proofs k = Some pf ->
    verify_decryption B pk d (mhr c) (gr c) pf label = false ->
    verify_decryption_factors B pk cs decs proofs label = Ok false.
  Proof.
    intros pk cs decs proofs label k c d pf H1 H2 Hc Hd Hp Hbad.
    rewrite verify_decryption_factors_spec by assumption. f_equal.
    apply (forallb_nth_false _ _ k (c, (d, pf))); [|exact Hbad].
    apply nth_error_combine; [exact Hc|]. apply nth_error_combine; assumption.
  Qed.

  Theorem cp_special_soundness : prime q -> forall g1 g2 pub1 pub2 k1 k2 c1 s1 c2 s2,
    mem g1 -> mem g2 -> mem pub1 -> mem pub2 -> mem k1 -> mem k2 ->
    0 <= c1 -> 0 <= c2 -> 0 <= s1 -> 0 <= s2 -> c1 mod q <> c2 mod q ->
    pow g1 s1 = mulp k1 (pow pub1 c1) -> pow g2 s1 = mulp k2 (pow pub2 c1) ->
    pow g1 s2 = mulp k1 (pow pub1 c2) -> pow g2 s2 = mulp k2 (pow pub2 c2) ->
    exists x, 0 <= x < q /\ pub1 = pow g1 x /\ pub2 = pow g2 x.
  Proof.
    intros q_prime g1 g2 pub1 pub2 k1 k2 c1 s1 c2 s2 Hg1 Hg2 Hp1 Hp2 Hk1 Hk2 Hc1 Hc2 Hs1 Hs2 Hd E11 E21 E12 E22.
    destruct (ss_witness B mem L q_prime c1 s1 c2 s2 Hc1 Hc2 Hs1 Hs2 Hd) as (x & Hx & W).
    exists x. split; [exact Hx|]. split; [apply (W g1 pub1 k1)|apply (W g2 pub2 k2)]; assumption.
  Qed.

  Theorem extracted_factor_decrypts : forall x c f, 0 <= x -> mem (mhr c) -> mem (gr c) ->
    f = pow (gr c) x ->
    exists d, decrypt B x c = Ok d /\ (exists i, b_invp B f = Ok i /\ d = mulp (mhr c) i).
  Proof.
    intros x c f Hx Hm Hg ->.
    destruct (decrypt_char B mem L x c Hm Hg Hx) as (i & D & _ & _ & Ei). eauto.
  Qed.

  Theorem cp_false_statement_one_challenge : prime q -> forall g1 g2 x pub2 k1 k2 c1 s1 c2 s2,
    mem g1 -> mem g2 -> g1 <> one -> mem pub2 -> mem k1 -> mem k2 -> 0 <= x ->
    pub2 <> pow g2 x ->
    0 <= c1 -> 0 <= c2 -> 0 <= s1 -> 0 <= s2 ->
    pow g1 s1 = mulp k1 (pow (pow g1 x) c1) -> pow g2 s1 = mulp k2 (pow pub2 c1) ->
    pow g1 s2 = mulp k1 (pow (pow g1 x) c2) -> pow g2 s2 = mulp k2 (pow pub2 c2) ->
    c1 mod q = c2 mod q.
  Proof.
    intros q_prime g1 g2 x pub2 k1 k2 c1 s1 c2 s2 Hg1 Hg2 Hne Hp2 Hk1 Hk2 Hx Hfalse Hc1 Hc2 Hs1 Hs2 E11 E21 E12 E22.
    destruct (Z.eq_dec (c1 mod q) (c2 mod q)) as [|Hd]; [assumption|exfalso].
    assert (Hp1 : mem (pow g1 x)) by memt.
    destruct (cp_special_soundness q_prime g1 g2 (pow g1 x) pub2 k1 k2 c1 s1 c2 s2
                Hg1 Hg2 Hp1 Hp2 Hk1 Hk2 Hc1 Hc2 Hs1 Hs2 Hd E11 E21 E12 E22) as (x' & Hx' & Ex1 & Ex2).
    apply Hfalse. rewrite Ex2. apply (pow_congr B mem L); [assumption|lia|assumption|].
    symmetry. apply (pow_inj B mem L q_prime g1 x x'); try assumption; lia.
  Qed.
End Km.

Print Assumptions combine_pks_perm.
Print Assumptions combine_pks_sum.
Print Assumptions km_share_verifies.
Print Assumptions joint_dec_correct.
Print Assumptions joint_dec_perm.
Print Assumptions joint_dec_many_spec.
Print Assumptions joint_dec_missing_factor.
Print Assumptions verify_decryption_factors_spec.
Print Assumptions verify_decryption_factors_one_bad.
Print Assumptions cp_special_soundness.
Print Assumptions extracted_factor_decrypts.
Print Assumptions cp_false_statement_one_challenge.
