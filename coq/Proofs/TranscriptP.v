(* Proofs/TranscriptP.v — Fiat-Shamir challenge inputs (Model/Zkp.v ChallengeInput, Model/Shuffler.v
   challenge functions):
     (a) the hashed bytes do not depend on insertion / iteration order (ci_bytes_perm),
     (b) the hashed bytes are an injective function of every transcript item (…_inj): every transcript
         is a map of named fields (fields), and borsh's length prefixes let a reader take the entries
         off the bytes again (rd_entry; enc of Proofs/CodecP.v), so the bytes determine them,
     (c) hence equal challenges with a different item exhibit an explicit collision of hash_to_exp
         (…_binding): a reduction, collision resistance is NOT assumed anywhere.
   sha512 and b_hash_to_exp are treated as arbitrary functions. *)
From Coq Require Import ZArith List Bool String Lia Permutation Sorted.
From Strand Require Import Model.Outcome Model.Codec Model.Sha512 Model.Backend Model.Zkp Model.Shuffler.
From Strand Require Import Proofs.CodecP Proofs.ListAlg.
Import ListNotations.
Open Scope list_scope.
Open Scope Z_scope.
Local Notation length := List.length.

Definition small (b : bytes) : Prop := Z.of_nat (length b) < 2 ^ 32.
Definition bytes_ok (b : bytes) : Prop := Forall (fun x => 0 <= x < 256) b.

Lemma filter_comm : forall {A} (f g : A -> bool) l, filter f (filter g l) = filter g (filter f l).
Proof.
  intros A f g l. induction l as [|x l IH]; simpl; auto.
  destruct (g x) eqn:G; destruct (f x) eqn:F; simpl; rewrite ?G, ?F, IH; reflexivity.
Qed.

Lemma filter_all : forall {A} (f : A -> bool) l, (forall x, In x l -> f x = true) -> filter f l = l.
Proof.
  intros A f l. induction l as [|x l IH]; simpl; intro H; auto.
  rewrite (H x) by auto. f_equal. apply IH. auto.
Qed.

Lemma app_inj_length : forall {A} (a b c d : list A),
  length a = length b -> a ++ c = b ++ d -> a = b /\ c = d.
Proof.
  intros A a. induction a as [|x a IH]; destruct b as [|y b]; simpl; intros c d L H;
    try discriminate; auto.
  inversion H; subst. destruct (IH b c d) as [E1 E2]; auto. subst. auto.
Qed.

Lemma map_inj : forall {A C} (f : A -> C), (forall a b, f a = f b -> a = b) ->
  forall l l', map f l = map f l' -> l = l'.
Proof.
  intros A C f Hf. induction l as [|a l IH]; destruct l' as [|b l']; simpl; intro H;
    try discriminate; auto.
  inversion H. f_equal; auto.
Qed.

Lemma bytes_eqb_eq : forall a b, bytes_eqb a b = true <-> a = b.
Proof.
  induction a as [|x a IH]; destruct b as [|y b]; simpl; split; intro H; try discriminate; auto.
  - apply andb_true_iff in H. destruct H as [H1 H2]. apply Z.eqb_eq in H1. apply IH in H2. congruence.
  - inversion H; subst. apply andb_true_iff. split; [apply Z.eqb_refl | apply IH; reflexivity].
Qed.

Lemma bytes_eqb_neq : forall a b, bytes_eqb a b = false <-> a <> b.
Proof. intros a b. rewrite <- bytes_eqb_eq. destruct (bytes_eqb a b); split; congruence. Qed.

Lemma bytes_eq_dec : forall a b : bytes, {a = b} + {a <> b}.
Proof. apply list_eq_dec. apply Z.eq_dec. Qed.

Lemma bytes_leb_cons : forall x a y b,
  bytes_leb (x :: a) (y :: b) = true <-> x < y \/ x = y /\ bytes_leb a b = true.
Proof.
  intros x a y b. simpl. destruct (Z.ltb_spec x y), (Z.ltb_spec y x); intuition (lia || discriminate).
Qed.

Lemma bytes_leb_refl : forall a, bytes_leb a a = true.
Proof. induction a as [|x a IH]; [reflexivity|]. apply bytes_leb_cons. auto. Qed.

Lemma bytes_leb_total : forall a b, bytes_leb a b = true \/ bytes_leb b a = true.
Proof.
  induction a as [|x a IH]; destruct b as [|y b]; auto.
  rewrite !bytes_leb_cons. destruct (Z.lt_trichotomy x y) as [|[->|]]; auto.
  destruct (IH b); auto.
Qed.

Lemma bytes_leb_antisym : forall a b, bytes_leb a b = true -> bytes_leb b a = true -> a = b.
Proof.
  induction a as [|x a IH]; destruct b as [|y b]; try discriminate; auto.
  rewrite !bytes_leb_cons. intros [|[-> H1]] [|[E H2]]; try lia. f_equal. auto.
Qed.

Lemma bytes_leb_trans : forall a b c, bytes_leb a b = true -> bytes_leb b c = true -> bytes_leb a c = true.
Proof.
  induction a as [|x a IH]; destruct b as [|y b], c as [|z c]; try discriminate; auto.
  rewrite !bytes_leb_cons. intros [|[-> H1]] [|[-> H2]]; [left; lia | auto | auto |].
  right. split; [reflexivity | eapply IH; eassumption].
Qed.

(* Order independence: ci_sort returns THE sorted arrangement of a map with distinct keys. *)
Definition key_le (e1 e2 : entry) : Prop := bytes_leb (fst e1) (fst e2) = true.

Lemma ci_sorted_insert_perm : forall e l, Permutation (e :: l) (ci_sorted_insert e l).
Proof.
  intros e l. induction l as [|x r IH]; simpl; auto.
  destruct (bytes_leb (fst e) (fst x)); auto.
  eapply perm_trans; [apply perm_swap|]. apply perm_skip. exact IH.
Qed.

Lemma ci_sort_perm : forall m, Permutation m (ci_sort m).
Proof.
  induction m as [|e m IH]; simpl; auto.
  eapply perm_trans; [apply perm_skip; exact IH|]. apply ci_sorted_insert_perm.
Qed.

Lemma ci_sort_length : forall m, length (ci_sort m) = length m.
Proof. intro m. symmetry. apply Permutation_length. apply ci_sort_perm. Qed.

Lemma ci_sorted_insert_ssorted : forall e l,
  StronglySorted key_le l -> StronglySorted key_le (ci_sorted_insert e l).
Proof.
  intros e l H. induction H as [|x r Hr IH Hx]; simpl.
  - constructor; constructor.
  - destruct (bytes_leb (fst e) (fst x)) eqn:E.
    + constructor; [constructor; assumption|].
      constructor; [exact E|].
      eapply Forall_impl; [|exact Hx]. intros a Ha. unfold key_le in *.
      eapply bytes_leb_trans; eassumption.
    + constructor; [exact IH|].
      eapply Permutation_Forall; [apply ci_sorted_insert_perm|].
      constructor; [|exact Hx].
      unfold key_le. destruct (bytes_leb_total (fst e) (fst x)) as [T|T]; congruence.
Qed.

Lemma ci_sort_ssorted : forall m, StronglySorted key_le (ci_sort m).
Proof.
  induction m as [|e m IH]; simpl; [constructor|]. apply ci_sorted_insert_ssorted. exact IH.
Qed.

Lemma ssorted_perm_unique : forall l1 l2 : cinput,
  StronglySorted key_le l1 -> StronglySorted key_le l2 ->
  Permutation l1 l2 -> NoDup (map fst l1) -> l1 = l2.
Proof.
  induction l1 as [|a l1 IH]; intros l2 S1 S2 P ND.
  - apply Permutation_nil in P. congruence.
  - destruct l2 as [|b l2]; [apply Permutation_sym, Permutation_nil in P; discriminate|].
    inversion S1 as [|? ? S1' F1]; subst. inversion S2 as [|? ? S2' F2]; subst.
    inversion ND as [|? ? Hn ND']; subst.
    (* were the heads different, each would occur in the other's tail, so their keys would be
       equal, and the key of a would occur twice in l1 *)
    assert (Hab : a = b).
    { assert (Ia : In a (b :: l2)) by (eapply Permutation_in; [exact P | left; reflexivity]).
      assert (Ib : In b (a :: l1))
        by (eapply Permutation_in; [apply Permutation_sym; exact P | left; reflexivity]).
      destruct Ia as [Ia|Ia]; [congruence|]. destruct Ib as [Ib|Ib]; [congruence|].
      rewrite Forall_forall in F1, F2.
      assert (K : fst a = fst b) by (apply bytes_leb_antisym; [apply F1 | apply F2]; assumption).
      exfalso. apply Hn. rewrite K. apply in_map. exact Ib. }
    subst b. f_equal. apply IH; auto. eapply Permutation_cons_inv; exact P.
Qed.

Lemma ci_sort_perm_eq : forall m1 m2 : cinput,
  Permutation m1 m2 -> NoDup (map fst m1) -> ci_sort m1 = ci_sort m2.
Proof.
  intros m1 m2 P ND. apply ssorted_perm_unique; try apply ci_sort_ssorted.
  - eapply perm_trans; [apply Permutation_sym, ci_sort_perm|].
    eapply perm_trans; [exact P|]. apply ci_sort_perm.
  - eapply Permutation_NoDup; [|exact ND]. apply Permutation_map. apply ci_sort_perm.
Qed.

Theorem ci_bytes_perm : forall m1 m2 : cinput,
  Permutation m1 m2 -> NoDup (map fst m1) -> ci_bytes m1 = ci_bytes m2.
Proof.
  intros m1 m2 P ND. unfold ci_bytes.
  rewrite (Permutation_length P). rewrite (ci_sort_perm_eq m1 m2 P ND). reflexivity.
Qed.
Print Assumptions ci_bytes_perm.

(* HashMap::insert keeps keys distinct *)
Lemma filter_key_notin : forall k (m : cinput),
  ~ In k (map fst (filter (fun kv => negb (bytes_eqb (fst kv) k)) m)).
Proof.
  intros k m H. apply in_map_iff in H. destruct H as [[k' v] [E I]]. simpl in E. subst k'.
  apply filter_In in I. destruct I as [_ I]. simpl in I.
  rewrite (proj2 (bytes_eqb_eq k k) eq_refl) in I. discriminate.
Qed.

Lemma filter_keys_nodup : forall (f : entry -> bool) (m : cinput),
  NoDup (map fst m) -> NoDup (map fst (filter f m)).
Proof.
  intros f m. induction m as [|e m IH]; simpl; intro ND; [constructor|].
  inversion ND as [|? ? Hn ND']; subst.
  destruct (f e); simpl; [|auto]. constructor; [|auto].
  intro H. apply Hn. apply in_map_iff in H. destruct H as [x [E I]].
  apply in_map_iff. exists x. split; [exact E|]. apply filter_In in I. tauto.
Qed.

Lemma ci_insert_nodup : forall k v m, NoDup (map fst m) -> NoDup (map fst (ci_insert k v m)).
Proof.
  intros k v m ND. unfold ci_insert. simpl. constructor.
  - apply filter_key_notin.
  - apply filter_keys_nodup. exact ND.
Qed.

Lemma ci_insert_swap_perm : forall k1 v1 k2 v2 m, k1 <> k2 ->
  Permutation (ci_insert k1 v1 (ci_insert k2 v2 m)) (ci_insert k2 v2 (ci_insert k1 v1 m)).
Proof.
  intros k1 v1 k2 v2 m Hne. unfold ci_insert. simpl.
  rewrite (proj2 (bytes_eqb_neq k2 k1)) by congruence.
  rewrite (proj2 (bytes_eqb_neq k1 k2)) by congruence. simpl.
  rewrite filter_comm. apply perm_swap.
Qed.

Theorem ci_bytes_insert_comm : forall k1 v1 k2 v2 m, k1 <> k2 -> NoDup (map fst m) ->
  ci_bytes (ci_insert k1 v1 (ci_insert k2 v2 m)) = ci_bytes (ci_insert k2 v2 (ci_insert k1 v1 m)).
Proof.
  intros k1 v1 k2 v2 m Hne ND. apply ci_bytes_perm.
  - apply ci_insert_swap_perm. exact Hne.
  - apply ci_insert_nodup. apply ci_insert_nodup. exact ND.
Qed.
Print Assumptions ci_bytes_insert_comm.

Definition ci_of_list (l : list entry) : cinput :=
  fold_right (fun kv m => ci_insert (fst kv) (snd kv) m) [] l.

Lemma ci_of_list_id : forall l, NoDup (map fst l) -> ci_of_list l = l.
Proof.
  induction l as [|[k v] l IH]; simpl; intro ND; auto.
  inversion ND as [|? ? Hn ND']; subst. rewrite (IH ND'). unfold ci_insert. simpl. f_equal.
  apply filter_all. intros [k' v'] I. simpl. apply negb_true_iff. apply bytes_eqb_neq.
  intro E. subst k'. apply Hn. apply in_map_iff. exists (k, v'). auto.
Qed.

Theorem ci_bytes_insertion_order : forall l1 l2 : list entry,
  Permutation l1 l2 -> NoDup (map fst l1) -> ci_bytes (ci_of_list l1) = ci_bytes (ci_of_list l2).
Proof.
  intros l1 l2 P ND.
  assert (ND2 : NoDup (map fst l2))
    by (eapply Permutation_NoDup; [apply Permutation_map; exact P | exact ND]).
  rewrite (ci_of_list_id l1 ND), (ci_of_list_id l2 ND2). apply ci_bytes_perm; assumption.
Qed.
Print Assumptions ci_bytes_insertion_order.

Lemma wr_vec_u8_delimited : delimited small wr_vec_u8.
Proof. exact (read_delimited _ _ rd_vec_u8 rd_vec_u8_app). Qed.

(* with nothing following, [small] is not needed: the two length prefixes have the same width *)
Lemma wr_vec_u8_inj : forall a a', wr_vec_u8 a = wr_vec_u8 a' -> a = a'.
Proof.
  unfold wr_vec_u8. intros a a' H.
  apply app_inj_length in H; [tauto | rewrite !u32le_len; reflexivity].
Qed.

Print Assumptions wr_vec_u8_inj.

Lemma small_of_wr_vec_u8 : forall a, small (wr_vec_u8 a) -> small a.
Proof. unfold small. intros a H. rewrite wr_vec_u8_len in H. lia. Qed.

Lemma u64le_inj : forall x y, 0 <= x < 2 ^ 64 -> 0 <= y < 2 ^ 64 -> u64le x = u64le y -> x = y.
Proof. intros x y Hx Hy. exact (enc_inj (enc_le 8 x Hx) (enc_le 8 y Hy)). Qed.

Definition wr_entry (kv : entry) : bytes := wr_vec_u8 (fst kv) ++ wr_vec_u8 (snd kv).
Definition entry_small (kv : entry) : Prop := small (fst kv) /\ small (snd kv).

(* Nothing in the repository reads a transcript back; the reader is put beside the writer because bytes
   determine whatever a reader takes off them (enc_inj). *)
Definition rd_entry : reader entry :=
  rd_bind rd_vec_u8 (fun k => rd_bind rd_vec_u8 (fun v => rd_ret (k, v))).

Lemma enc_entry kv : entry_small kv -> enc rd_entry kv (wr_entry kv).
Proof.
  destruct kv as [k v]. intros [Sk Sv].
  exact (enc_bind (enc_vec_u8 k Sk) (enc_last (enc_vec_u8 v Sv) (fun _ => eq_refl))).
Qed.

Lemma enc_entries l a : Forall entry_small l -> In a l -> enc rd_entry a (wr_entry a).
Proof. intros F Ha. rewrite Forall_forall in F. apply enc_entry, F, Ha. Qed.

Lemma wr_entries_same_keys_inj : forall (l l' : list entry),
  map fst l = map fst l' -> Forall entry_small l -> Forall entry_small l' ->
  flat_map (fun kv => wr_vec_u8 (fst kv) ++ wr_vec_u8 (snd kv)) l =
  flat_map (fun kv => wr_vec_u8 (fst kv) ++ wr_vec_u8 (snd kv)) l' ->
  map snd l = map snd l'.
Proof.
  intros l l' K F F' H.
  assert (L : length l = length l').
  { apply (f_equal (@List.length _)) in K. rewrite !map_length in K. exact K. }
  pose proof (enc_n rd_entry wr_entry l (fun a => enc_entries l a F)) as E.
  pose proof (enc_n rd_entry wr_entry l' (fun a => enc_entries l' a F')) as E'.
  rewrite L in E. rewrite (enc_inj E E' H). reflexivity.
Qed.

Print Assumptions wr_entries_same_keys_inj.

(* borsh writes the map as the vector of its sorted entries, so the bytes determine that vector *)
Definition ci_small (m : cinput) : Prop :=
  Z.of_nat (length m) < 2 ^ 32 /\ Forall entry_small m.

Lemma ci_bytes_wr_vec m : ci_bytes m = wr_vec wr_entry (ci_sort m).
Proof. unfold ci_bytes, wr_vec. rewrite ci_sort_length. reflexivity. Qed.

Lemma ci_sort_small m : ci_small m -> ci_small (ci_sort m).
Proof.
  intros [L F]. split; [rewrite ci_sort_length; exact L|].
  eapply Permutation_Forall; [apply ci_sort_perm | exact F].
Qed.

Lemma enc_ci m : ci_small m -> enc (rd_vec 0 rd_entry) m (wr_vec wr_entry m).
Proof.
  intros [L F]. exact (enc_vec 0 rd_entry wr_entry m L (fun _ _ => Nat.le_0_l _) (fun a => enc_entries m a F)).
Qed.

Theorem ci_bytes_inj : forall m m' : cinput, ci_small m -> ci_small m' ->
  ci_bytes m = ci_bytes m' -> ci_sort m = ci_sort m'.
Proof.
  intros m m' S S' H. rewrite !ci_bytes_wr_vec in H.
  exact (enc_inj (enc_ci _ (ci_sort_small m S)) (enc_ci _ (ci_sort_small m' S')) H).
Qed.
Print Assumptions ci_bytes_inj.

Corollary ci_bytes_inj_perm : forall m m' : cinput, ci_small m -> ci_small m' ->
  ci_bytes m = ci_bytes m' -> Permutation m m'.
Proof.
  intros m m' S S' H. apply ci_bytes_inj in H; auto.
  eapply perm_trans; [apply ci_sort_perm|]. rewrite H. apply Permutation_sym, ci_sort_perm.
Qed.

Lemma ci_insert_entries_small : forall k v m, small k -> small v ->
  Forall entry_small m -> Forall entry_small (ci_insert k v m).
Proof.
  intros k v m Sk Sv F. unfold ci_insert. constructor; [split; assumption|].
  rewrite Forall_forall in *. intros x I. apply filter_In in I. apply F. tauto.
Qed.

Lemma perm_same_keys_eq : forall l l' : list entry,
  Permutation l l' -> map fst l = map fst l' -> NoDup (map fst l) -> l = l'.
Proof.
  induction l as [|[k v] l IH]; destruct l' as [|[k' v'] l']; simpl; intros P K ND;
    try discriminate; auto.
  inversion K; subst k'. inversion ND as [|? ? Hn ND']; subst.
  assert (I : In (k, v) ((k, v') :: l')) by (eapply Permutation_in; [exact P | left; reflexivity]).
  destruct I as [I|I].
  - inversion I; subst v'. f_equal. apply IH; auto. eapply Permutation_cons_inv; exact P.
  - exfalso. apply Hn. rewrite H1. apply in_map_iff. exists (k, v). auto.
Qed.

Theorem ci_bytes_same_keys_inj : forall l l' : cinput,
  map fst l = map fst l' -> NoDup (map fst l) -> ci_small l -> ci_small l' ->
  ci_bytes l = ci_bytes l' -> l = l'.
Proof.
  intros l l' K ND S S' H. apply perm_same_keys_eq; auto. apply ci_bytes_inj_perm; assumption.
Qed.
Print Assumptions ci_bytes_same_keys_inj.

(* n-ary conjunction: all [p; q; r] is convertible with p /\ q /\ r, so a statement about the
   fields of a transcript, made with all, can be instantiated at a written-out conjunction. *)
Fixpoint all (ps : list Prop) : Prop :=
  match ps with
  | [] => True
  | [p] => p
  | p :: ps' => p /\ all ps'
  end.

Lemma all_cons p ps : all (p :: ps) <-> p /\ all ps.
Proof. destruct ps; simpl; tauto. Qed.

Lemma all_map_Forall {A} (P : A -> Prop) l : all (map P l) <-> Forall P l.
Proof.
  induction l as [|a l IH]; [split; constructor|].
  cbn [map]. rewrite all_cons, IH, Forall_cons_iff. reflexivity.
Qed.

(* The transcripts of Zkp.v and Shuffler.v all have one shape: the values vs inserted in turn,
   under the keys ks, into the empty map. *)
Definition fields (ks vs : list bytes) : cinput :=
  fold_left (fun m kv => ci_insert (fst kv) (snd kv) m) (combine ks vs) [].

Lemma fields_of_list ks vs : fields ks vs = ci_of_list (rev (combine ks vs)).
Proof. symmetry. apply fold_left_rev_right. Qed.

(* by order independence the map hashes as the plain list of its fields *)
Lemma fields_bytes ks vs : NoDup ks -> length vs = length ks ->
  ci_bytes (fields ks vs) = ci_bytes (combine ks vs).
Proof.
  intros D L. pose proof (map_fst_combine ks vs (eq_sym L)) as F.
  rewrite fields_of_list, ci_of_list_id by (rewrite map_rev, F; apply NoDup_rev, D).
  symmetry. apply ci_bytes_perm; [apply Permutation_rev | rewrite F; exact D].
Qed.

(* the side conditions on the keys, decided by evaluation when the keys are literals *)
Fixpoint keys_distinctb (ks : list bytes) : bool :=
  match ks with
  | [] => true
  | k :: r => negb (existsb (bytes_eqb k) r) && keys_distinctb r
  end.

Lemma keys_distinctb_sound : forall ks, keys_distinctb ks = true -> NoDup ks.
Proof.
  induction ks as [|k r IH]; simpl; intro H; [constructor|].
  apply andb_true_iff in H. destruct H as [H1 H2]. constructor; [|auto].
  intro I. apply negb_true_iff in H1.
  assert (E : existsb (bytes_eqb k) r = true)
    by (apply existsb_exists; exists k; split; [exact I | apply bytes_eqb_eq; reflexivity]).
  congruence.
Qed.

Definition keys_okb (ks : list bytes) : bool :=
  keys_distinctb ks && forallb (fun k => Z.of_nat (length k) <? 2 ^ 32) ks &&
  (Z.of_nat (length ks) <? 2 ^ 32).

Lemma keys_okb_sound ks : keys_okb ks = true ->
  NoDup ks /\ Forall small ks /\ Z.of_nat (length ks) < 2 ^ 32.
Proof.
  intro H. unfold keys_okb in H. rewrite !andb_true_iff, forallb_forall, Z.ltb_lt in H.
  destruct H as [[D S] N]. repeat split; [apply keys_distinctb_sound, D | | exact N].
  apply Forall_forall. intros k I. apply Z.ltb_lt, S, I.
Qed.

Theorem fields_inj ks vs vs' :
  keys_okb ks = true -> length vs = length ks -> length vs' = length ks ->
  all (map small vs) -> all (map small vs') ->
  ci_bytes (fields ks vs) = ci_bytes (fields ks vs') ->
  all (map (fun p => fst p = snd p) (combine vs vs')).
Proof.
  intros K L L' S S' H. apply keys_okb_sound in K. destruct K as (D & Sk & N).
  assert (C : forall us, length us = length ks -> all (map small us) -> ci_small (combine ks us)).
  { intros us Lu Su. apply all_map_Forall in Su. rewrite Forall_forall in *.
    split; [unfold entry; rewrite combine_length, Lu, Nat.min_id; exact N|]. apply Forall_forall.
    intros [k v] I. split; [apply Sk; eapply in_combine_l | apply Su; eapply in_combine_r]; exact I. }
  rewrite !fields_bytes in H by assumption.
  pose proof (map_fst_combine ks vs (eq_sym L)) as F. pose proof (map_fst_combine ks vs' (eq_sym L')) as F'.
  pose proof (map_snd_combine ks vs (eq_sym L)) as V. pose proof (map_snd_combine ks vs' (eq_sym L')) as V'.
  apply ci_bytes_same_keys_inj in H; auto; [|congruence|rewrite F; exact D].
  apply (f_equal (map snd)) in H. rewrite V, V' in H. subst vs'.
  apply all_map_Forall. clear. induction vs; constructor; auto.
Qed.

Section Transcripts.
  Variable B : Backend.
  Notation ser := (b_ser_e B).

  Definition schnorr_small (g pub com : E B) (ctx : cinput) : Prop :=
    small (ser g) /\ small (ser pub) /\ small (ser com) /\ small (ci_bytes ctx).

  Theorem schnorr_transcript_inj : forall g pub com ctx g' pub' com' ctx',
    schnorr_small g pub com ctx -> schnorr_small g' pub' com' ctx' ->
    schnorr_transcript B g pub com ctx = schnorr_transcript B g' pub' com' ctx' ->
    ser g = ser g' /\ ser pub = ser pub' /\ ser com = ser com' /\ ci_bytes ctx = ci_bytes ctx'.
  Proof.
    intros g pub com ctx g' pub' com' ctx'.
    exact (fields_inj (map key ["g"; "public"; "commitment"; "context"]%string)
             [ser g; ser pub; ser com; ci_bytes ctx] [ser g'; ser pub'; ser com'; ci_bytes ctx']
             eq_refl eq_refl eq_refl).
  Qed.

  Definition cp_small (g1 g2 pub1 pub2 com1 com2 : E B) (ctx : cinput) : Prop :=
    small (ser g1) /\ small (ser g2) /\ small (ser pub1) /\ small (ser pub2) /\
    small (ser com1) /\ small (ser com2) /\ small (ci_bytes ctx).

  Theorem cp_transcript_inj : forall g1 g2 pub1 pub2 com1 com2 ctx g1' g2' pub1' pub2' com1' com2' ctx',
    cp_small g1 g2 pub1 pub2 com1 com2 ctx -> cp_small g1' g2' pub1' pub2' com1' com2' ctx' ->
    cp_transcript B g1 g2 pub1 pub2 com1 com2 ctx = cp_transcript B g1' g2' pub1' pub2' com1' com2' ctx' ->
    ser g1 = ser g1' /\ ser g2 = ser g2' /\ ser pub1 = ser pub1' /\ ser pub2 = ser pub2' /\
    ser com1 = ser com1' /\ ser com2 = ser com2' /\ ci_bytes ctx = ci_bytes ctx'.
  Proof.
    intros g1 g2 pub1 pub2 com1 com2 ctx g1' g2' pub1' pub2' com1' com2' ctx'.
    exact (fields_inj
             (map key ["g1"; "g2"; "public1"; "public2"; "commitment1"; "commitment2"; "context"]%string)
             [ser g1; ser g2; ser pub1; ser pub2; ser com1; ser com2; ci_bytes ctx]
             [ser g1'; ser g2'; ser pub1'; ser pub2'; ser com1'; ser com2'; ci_bytes ctx']
             eq_refl eq_refl eq_refl).
  Qed.

  Theorem ctx_label_inj : forall l l', small l -> small l' ->
    ci_bytes (ctx_label l) = ci_bytes (ctx_label l') -> l = l'.
  Proof.
    intros l l'. exact (fields_inj (map key ["label"]%string) [l] [l'] eq_refl eq_refl eq_refl).
  Qed.

  (* wr_vec_u8 label is 4 bytes longer than label, so its smallness is what is needed (and it
     implies small label, see small_of_wr_vec_u8) *)
  Theorem ctx_mhr_label_inj : forall m l m' l',
    small (ser m) -> small (ser m') -> small (wr_vec_u8 l) -> small (wr_vec_u8 l') ->
    ci_bytes (ctx_mhr_label B m l) = ci_bytes (ctx_mhr_label B m' l') ->
    ser m = ser m' /\ l = l'.
  Proof.
    intros m l m' l' S1 S2 S3 S4 H.
    destruct (fields_inj (map key ["mhr"; "label"]%string) [ser m; wr_vec_u8 l] [ser m'; wr_vec_u8 l']
                eq_refl eq_refl eq_refl (conj S1 S3) (conj S2 S4) H) as [E1 E2].
    split; [exact E1 | apply wr_vec_u8_inj, E2].
  Qed.

  Definition us_small (es e' : list (ctext B)) (cs : list (E B)) (label : bytes) : Prop :=
    small (ser_vecC B es) /\ small (ser_vecC B e') /\ small (ser_vecE B cs) /\
    small (wr_vec_u8 label).

  Theorem us_prefix_inj : forall es e' cs label es2 e2' cs2 label2,
    us_small es e' cs label -> us_small es2 e2' cs2 label2 ->
    us_prefix B es e' cs label = us_prefix B es2 e2' cs2 label2 ->
    ser_vecC B es = ser_vecC B es2 /\ ser_vecC B e' = ser_vecC B e2' /\
    ser_vecE B cs = ser_vecE B cs2 /\ label = label2.
  Proof.
    intros es e' cs label es2 e2' cs2 label2 S S' H.
    destruct (fields_inj (map key ["es"; "e_primes"; "cs"; "label"]%string)
                [ser_vecC B es; ser_vecC B e'; ser_vecE B cs; wr_vec_u8 label]
                [ser_vecC B es2; ser_vecC B e2'; ser_vecE B cs2; wr_vec_u8 label2]
                eq_refl eq_refl eq_refl S S' H) as (E1 & E2 & E3 & E4).
    repeat split; try assumption. apply wr_vec_u8_inj, E4.
  Qed.

  Lemma u64le_small : forall i, small (u64le i).
  Proof. intro i. unfold small, u64le. rewrite le_fixed_len. reflexivity. Qed.

  Theorem u_input_inj : forall ph ph' i i', small ph -> small ph' ->
    0 <= i < 2 ^ 64 -> 0 <= i' < 2 ^ 64 ->
    u_input ph i = u_input ph' i' -> ph = ph' /\ i = i'.
  Proof.
    intros ph ph' i i' S S' Hi Hi' H.
    destruct (fields_inj (map key ["prefix"; "counter"]%string) [ph; u64le i] [ph'; u64le i']
                eq_refl eq_refl eq_refl (conj S (u64le_small i)) (conj S' (u64le_small i')) H)
      as [E1 E2].
    split; [exact E1 | apply u64le_inj; assumption].
  Qed.

  (* the bytes written out.  "counter" comes first because ci_sort orders the keys by bytes_leb and "counter" is
     below "prefix": [reflexivity] runs the sort on the two literal keys *)
  Lemma u_input_explicit : forall ph i,
    u_input ph i =
    u32le 2 ++ (wr_vec_u8 (key "counter") ++ wr_vec_u8 (u64le i)) ++
               (wr_vec_u8 (key "prefix") ++ wr_vec_u8 ph) ++ [].
  Proof. reflexivity. Qed.

  Theorem u_input_counter_inj : forall ph i j,
    0 <= i < 2 ^ 64 -> 0 <= j < 2 ^ 64 -> u_input ph i = u_input ph j -> i = j.
  Proof.
    intros ph i j Hi Hj H. rewrite !u_input_explicit in H.
    apply app_inv_head in H. rewrite <- !app_assoc in H. apply app_inv_head in H.
    apply wr_vec_u8_delimited in H; try apply u64le_small.
    destruct H as [H _]. apply u64le_inj; assumption.
  Qed.

  Definition challenge_small (es e' : list (ctext B)) (cs c_hats : list (E B)) (pk : E B)
             (t : commitments B) (label : bytes) : Prop :=
    small (ser (t1 B t)) /\ small (ser (t2 B t)) /\ small (ser (t3 B t)) /\
    small (ser (t41 B t)) /\ small (ser (t42 B t)) /\ small (ser_vecE B (t_hats B t)) /\
    small (ser_vecC B es) /\ small (ser_vecC B e') /\ small (ser_vecE B cs) /\
    small (ser_vecE B c_hats) /\ small (ser pk) /\ small label.

  Theorem challenge_input_inj : forall es e' cs c_hats pk t label es2 e2' cs2 c_hats2 pk2 t' label2,
    challenge_small es e' cs c_hats pk t label ->
    challenge_small es2 e2' cs2 c_hats2 pk2 t' label2 ->
    challenge_input B es e' cs c_hats pk t label =
    challenge_input B es2 e2' cs2 c_hats2 pk2 t' label2 ->
    ser (t1 B t) = ser (t1 B t') /\ ser (t2 B t) = ser (t2 B t') /\ ser (t3 B t) = ser (t3 B t') /\
    ser (t41 B t) = ser (t41 B t') /\ ser (t42 B t) = ser (t42 B t') /\
    ser_vecE B (t_hats B t) = ser_vecE B (t_hats B t') /\
    ser_vecC B es = ser_vecC B es2 /\ ser_vecC B e' = ser_vecC B e2' /\
    ser_vecE B cs = ser_vecE B cs2 /\ ser_vecE B c_hats = ser_vecE B c_hats2 /\
    ser pk = ser pk2 /\ label = label2.
  Proof.
    intros es e' cs c_hats pk t label es2 e2' cs2 c_hats2 pk2 t' label2 S S' H.
    unfold challenge_small in S, S'.
    (* the fields in the order challenge_input inserts them; the statement has t_hats earlier *)
    apply (fields_inj
             (map key ["t1"; "t2"; "t3"; "t4_1"; "t4_2"; "es"; "e_primes"; "cs"; "c_hats";
                       "pk.element"; "t_hats"; "label"]%string)
             [ser (t1 B t); ser (t2 B t); ser (t3 B t); ser (t41 B t); ser (t42 B t);
              ser_vecC B es; ser_vecC B e'; ser_vecE B cs; ser_vecE B c_hats; ser pk;
              ser_vecE B (t_hats B t); label]
             [ser (t1 B t'); ser (t2 B t'); ser (t3 B t'); ser (t41 B t'); ser (t42 B t');
              ser_vecC B es2; ser_vecC B e2'; ser_vecE B cs2; ser_vecE B c_hats2; ser pk2;
              ser_vecE B (t_hats B t'); label2]
             eq_refl eq_refl eq_refl) in H; cbn [all map combine fst snd] in *;
      [decompose [and] H | decompose [and] S | decompose [and] S']; repeat split; assumption.
  Qed.
End Transcripts.
Print Assumptions schnorr_transcript_inj.
Print Assumptions cp_transcript_inj.
Print Assumptions ctx_label_inj.
Print Assumptions ctx_mhr_label_inj.
Print Assumptions us_prefix_inj.
Print Assumptions u_input_inj.
Print Assumptions u_input_counter_inj.
Print Assumptions challenge_input_inj.

Theorem ser_svec_inj : forall {A} (ser : A -> bytes) l l',
  Z.of_nat (length l) < 2 ^ 32 -> Z.of_nat (length l') < 2 ^ 32 ->
  Forall (fun a => small (ser a)) l -> Forall (fun a => small (ser a)) l' ->
  ser_svec ser l = ser_svec ser l' -> map ser l = map ser l'.
Proof.
  intros A ser l l' L L' F F'. exact (enc_inj (enc_items ser l L F) (enc_items ser l' L' F')).
Qed.
Print Assumptions ser_svec_inj.

Theorem ser_svec_inj_list : forall {A} (ser : A -> bytes) l l',
  (forall a b, ser a = ser b -> a = b) -> (forall a, small (ser a)) ->
  Z.of_nat (length l) < 2 ^ 32 -> Z.of_nat (length l') < 2 ^ 32 ->
  ser_svec ser l = ser_svec ser l' -> l = l'.
Proof.
  intros A ser l l' Inj S L L' H. apply (map_inj ser Inj).
  apply ser_svec_inj; auto; apply Forall_forall; intros; apply S.
Qed.
Print Assumptions ser_svec_inj_list.

Corollary ser_vecE_inj : forall (B : Backend) (l l' : list (E B)),
  Z.of_nat (length l) < 2 ^ 32 -> Z.of_nat (length l') < 2 ^ 32 ->
  Forall (fun a => small (b_ser_e B a)) l -> Forall (fun a => small (b_ser_e B a)) l' ->
  ser_vecE B l = ser_vecE B l' -> map (b_ser_e B) l = map (b_ser_e B) l'.
Proof. intros B l l'. unfold ser_vecE. apply ser_svec_inj. Qed.

Corollary ser_vecC_inj : forall (B : Backend) (l l' : list (ctext B)),
  Z.of_nat (length l) < 2 ^ 32 -> Z.of_nat (length l') < 2 ^ 32 ->
  Forall (fun a => small (ser_ct B a)) l -> Forall (fun a => small (ser_ct B a)) l' ->
  ser_vecC B l = ser_vecC B l' -> map (ser_ct B) l = map (ser_ct B) l'.
Proof. intros B l l'. unfold ser_vecC. apply ser_svec_inj. Qed.

(* a ciphertext is two elements back to back: injective when the element encoding has a fixed
   width (the 32-byte ristretto encoding; the integer backends write length-prefixed minimal bytes,
   which are self-delimiting instead) *)
Lemma ser_ct_inj : forall (B : Backend) (c c' : ctext B),
  (forall a b : E B, length (b_ser_e B a) = length (b_ser_e B b)) ->
  ser_ct B c = ser_ct B c' ->
  b_ser_e B (mhr c) = b_ser_e B (mhr c') /\ b_ser_e B (gr c) = b_ser_e B (gr c').
Proof. intros B c c' W H. unfold ser_ct in H. apply app_inj_length in H; auto. Qed.

Lemma hash_binding : forall {T} (h : bytes -> T) (x y : bytes) (P : Prop),
  (x = y -> P) -> h x = h y -> P \/ (exists x y : bytes, x <> y /\ h x = h y).
Proof.
  intros T h x y P HP H. destruct (bytes_eq_dec x y) as [E|N].
  - left. auto.
  - right. exists x, y. auto.
Qed.

Theorem schnorr_challenge_deterministic : forall B g pub com ctx g' pub' com' ctx',
  b_ser_e B g = b_ser_e B g' -> b_ser_e B pub = b_ser_e B pub' -> b_ser_e B com = b_ser_e B com' ->
  ci_bytes ctx = ci_bytes ctx' ->
  schnorr_challenge B g pub com ctx = schnorr_challenge B g' pub' com' ctx'.
Proof.
  intros B g pub com ctx g' pub' com' ctx' E1 E2 E3 E4.
  unfold schnorr_challenge, schnorr_transcript. rewrite E1, E2, E3, E4. reflexivity.
Qed.
Print Assumptions schnorr_challenge_deterministic.

Theorem schnorr_challenge_binding : forall B g pub com ctx g' pub' com' ctx',
  schnorr_small B g pub com ctx -> schnorr_small B g' pub' com' ctx' ->
  schnorr_challenge B g pub com ctx = schnorr_challenge B g' pub' com' ctx' ->
  (b_ser_e B g = b_ser_e B g' /\ b_ser_e B pub = b_ser_e B pub' /\ b_ser_e B com = b_ser_e B com' /\
   ci_bytes ctx = ci_bytes ctx')
  \/ (exists x y, x <> y /\ b_hash_to_exp B x = b_hash_to_exp B y).
Proof.
  intros B g pub com ctx g' pub' com' ctx' S S' H. unfold schnorr_challenge in H.
  eapply hash_binding; [|exact H]. apply schnorr_transcript_inj; assumption.
Qed.
Print Assumptions schnorr_challenge_binding.

Theorem cp_challenge_binding :
  forall B g1 g2 pub1 pub2 com1 com2 ctx g1' g2' pub1' pub2' com1' com2' ctx',
  cp_small B g1 g2 pub1 pub2 com1 com2 ctx -> cp_small B g1' g2' pub1' pub2' com1' com2' ctx' ->
  cp_challenge B g1 g2 pub1 pub2 com1 com2 ctx = cp_challenge B g1' g2' pub1' pub2' com1' com2' ctx' ->
  (b_ser_e B g1 = b_ser_e B g1' /\ b_ser_e B g2 = b_ser_e B g2' /\
   b_ser_e B pub1 = b_ser_e B pub1' /\ b_ser_e B pub2 = b_ser_e B pub2' /\
   b_ser_e B com1 = b_ser_e B com1' /\ b_ser_e B com2 = b_ser_e B com2' /\
   ci_bytes ctx = ci_bytes ctx')
  \/ (exists x y, x <> y /\ b_hash_to_exp B x = b_hash_to_exp B y).
Proof.
  intros B g1 g2 pub1 pub2 com1 com2 ctx g1' g2' pub1' pub2' com1' com2' ctx' S S' H.
  unfold cp_challenge in H. eapply hash_binding; [|exact H]. apply cp_transcript_inj; assumption.
Qed.
Print Assumptions cp_challenge_binding.

Theorem shuffle_challenge_binding :
  forall B es e' cs c_hats pk t label es2 e2' cs2 c_hats2 pk2 t' label2,
  challenge_small B es e' cs c_hats pk t label ->
  challenge_small B es2 e2' cs2 c_hats2 pk2 t' label2 ->
  shuffle_challenge B es e' cs c_hats pk t label =
  shuffle_challenge B es2 e2' cs2 c_hats2 pk2 t' label2 ->
  (b_ser_e B (t1 B t) = b_ser_e B (t1 B t') /\ b_ser_e B (t2 B t) = b_ser_e B (t2 B t') /\
   b_ser_e B (t3 B t) = b_ser_e B (t3 B t') /\ b_ser_e B (t41 B t) = b_ser_e B (t41 B t') /\
   b_ser_e B (t42 B t) = b_ser_e B (t42 B t') /\
   ser_vecE B (t_hats B t) = ser_vecE B (t_hats B t') /\
   ser_vecC B es = ser_vecC B es2 /\ ser_vecC B e' = ser_vecC B e2' /\
   ser_vecE B cs = ser_vecE B cs2 /\ ser_vecE B c_hats = ser_vecE B c_hats2 /\
   b_ser_e B pk = b_ser_e B pk2 /\ label = label2)
  \/ (exists x y, x <> y /\ b_hash_to_exp B x = b_hash_to_exp B y).
Proof.
  intros B es e' cs c_hats pk t label es2 e2' cs2 c_hats2 pk2 t' label2 S S' H.
  unfold shuffle_challenge in H. eapply hash_binding; [|exact H].
  apply challenge_input_inj; assumption.
Qed.
Print Assumptions shuffle_challenge_binding.

Lemma shuffle_us_nth : forall B es e' cs n label i, (i < n)%nat ->
  nth i (shuffle_us B es e' cs n label) 0 =
  b_hash_to_exp B (u_input (sha512 (us_prefix B es e' cs label)) (Z.of_nat i)).
Proof.
  intros B es e' cs n label i Hi. unfold shuffle_us.
  set (f := fun k : nat =>
              b_hash_to_exp B (u_input (sha512 (us_prefix B es e' cs label)) (Z.of_nat k))).
  rewrite (nth_indep _ 0 (f 0%nat)) by (rewrite map_length, seq_length; exact Hi).
  rewrite map_nth. rewrite seq_nth by exact Hi. reflexivity.
Qed.

Theorem shuffle_us_index_binding : forall B es e' cs n label i j,
  (i < n)%nat -> (j < n)%nat -> Z.of_nat n <= 2 ^ 64 -> i <> j ->
  nth i (shuffle_us B es e' cs n label) 0 = nth j (shuffle_us B es e' cs n label) 0 ->
  exists x y, x <> y /\ b_hash_to_exp B x = b_hash_to_exp B y.
Proof.
  intros B es e' cs n label i j Hi Hj Hn Hij H. rewrite !shuffle_us_nth in H by assumption.
  eexists. eexists. split; [|exact H].
  intro E. apply u_input_counter_inj in E; lia.
Qed.
Print Assumptions shuffle_us_index_binding.

(* two shuffles (possibly different statements): equal u_i at the same or different index means
   equal prefix hash and equal index, or a hash_to_exp collision; and equal prefix hashes mean
   equal statements or an explicit sha512 collision *)
Theorem shuffle_us_binding : forall B es e' cs n label es2 e2' cs2 n2 label2 i j,
  (i < n)%nat -> (j < n2)%nat -> Z.of_nat n <= 2 ^ 64 -> Z.of_nat n2 <= 2 ^ 64 ->
  small (sha512 (us_prefix B es e' cs label)) -> small (sha512 (us_prefix B es2 e2' cs2 label2)) ->
  us_small B es e' cs label -> us_small B es2 e2' cs2 label2 ->
  nth i (shuffle_us B es e' cs n label) 0 = nth j (shuffle_us B es2 e2' cs2 n2 label2) 0 ->
  (i = j /\ ser_vecC B es = ser_vecC B es2 /\ ser_vecC B e' = ser_vecC B e2' /\
   ser_vecE B cs = ser_vecE B cs2 /\ label = label2)
  \/ (exists x y, x <> y /\ b_hash_to_exp B x = b_hash_to_exp B y)
  \/ (exists x y, x <> y /\ sha512 x = sha512 y).
Proof.
  intros B es e' cs n label es2 e2' cs2 n2 label2 i j Hi Hj Hn Hn2 Sp Sp2 S S2 H.
  rewrite !shuffle_us_nth in H by assumption.
  destruct (hash_binding _ _ _ _ (fun E => E) H) as [E|C]; [|right; left; exact C].
  apply u_input_inj in E; try assumption; try lia. destruct E as [Eph Eij].
  destruct (hash_binding _ _ _ _ (fun E => E) Eph) as [E|C]; [|right; right; exact C].
  left. apply us_prefix_inj in E; try assumption. split; [lia | exact E].
Qed.
Print Assumptions shuffle_us_binding.

(* the composite forms the entry points use: plain label context, and {mhr, label} context *)
Theorem schnorr_label_binding : forall B g pub com l g' pub' com' l',
  schnorr_small B g pub com (ctx_label l) -> schnorr_small B g' pub' com' (ctx_label l') ->
  small l -> small l' ->
  schnorr_challenge B g pub com (ctx_label l) = schnorr_challenge B g' pub' com' (ctx_label l') ->
  (b_ser_e B g = b_ser_e B g' /\ b_ser_e B pub = b_ser_e B pub' /\ b_ser_e B com = b_ser_e B com' /\
   l = l')
  \/ (exists x y, x <> y /\ b_hash_to_exp B x = b_hash_to_exp B y).
Proof.
  intros B g pub com l g' pub' com' l' S S' Sl Sl' H.
  apply schnorr_challenge_binding in H; try assumption.
  destruct H as [(E1 & E2 & E3 & E4)|C]; [left|right; exact C].
  repeat split; try assumption. apply ctx_label_inj; assumption.
Qed.
Print Assumptions schnorr_label_binding.

Theorem schnorr_mhr_label_binding : forall B g pub com m l g' pub' com' m' l',
  schnorr_small B g pub com (ctx_mhr_label B m l) ->
  schnorr_small B g' pub' com' (ctx_mhr_label B m' l') ->
  small (b_ser_e B m) -> small (b_ser_e B m') -> small (wr_vec_u8 l) -> small (wr_vec_u8 l') ->
  schnorr_challenge B g pub com (ctx_mhr_label B m l) =
  schnorr_challenge B g' pub' com' (ctx_mhr_label B m' l') ->
  (b_ser_e B g = b_ser_e B g' /\ b_ser_e B pub = b_ser_e B pub' /\ b_ser_e B com = b_ser_e B com' /\
   b_ser_e B m = b_ser_e B m' /\ l = l')
  \/ (exists x y, x <> y /\ b_hash_to_exp B x = b_hash_to_exp B y).
Proof.
  intros B g pub com m l g' pub' com' m' l' S S' Sm Sm' Sl Sl' H.
  apply schnorr_challenge_binding in H; try assumption.
  destruct H as [(E1 & E2 & E3 & E4)|C]; [left|right; exact C].
  apply ctx_mhr_label_inj in E4; try assumption. destruct E4 as [E4 E5].
  repeat split; assumption.
Qed.
Print Assumptions schnorr_mhr_label_binding.

Theorem cp_mhr_label_binding :
  forall B g1 g2 pub1 pub2 com1 com2 m l g1' g2' pub1' pub2' com1' com2' m' l',
  cp_small B g1 g2 pub1 pub2 com1 com2 (ctx_mhr_label B m l) ->
  cp_small B g1' g2' pub1' pub2' com1' com2' (ctx_mhr_label B m' l') ->
  small (b_ser_e B m) -> small (b_ser_e B m') -> small (wr_vec_u8 l) -> small (wr_vec_u8 l') ->
  cp_challenge B g1 g2 pub1 pub2 com1 com2 (ctx_mhr_label B m l) =
  cp_challenge B g1' g2' pub1' pub2' com1' com2' (ctx_mhr_label B m' l') ->
  (b_ser_e B g1 = b_ser_e B g1' /\ b_ser_e B g2 = b_ser_e B g2' /\
   b_ser_e B pub1 = b_ser_e B pub1' /\ b_ser_e B pub2 = b_ser_e B pub2' /\
   b_ser_e B com1 = b_ser_e B com1' /\ b_ser_e B com2 = b_ser_e B com2' /\
   b_ser_e B m = b_ser_e B m' /\ l = l')
  \/ (exists x y, x <> y /\ b_hash_to_exp B x = b_hash_to_exp B y).
Proof.
  intros B g1 g2 pub1 pub2 com1 com2 m l g1' g2' pub1' pub2' com1' com2' m' l' S S' Sm Sm' Sl Sl' H.
  apply cp_challenge_binding in H; try assumption.
  destruct H as [(E1 & E2 & E3 & E4 & E5 & E6 & E7)|C]; [left|right; exact C].
  apply ctx_mhr_label_inj in E7; try assumption. destruct E7 as [E7 E8].
  repeat split; assumption.
Qed.
Print Assumptions cp_mhr_label_binding.
