(* Model/RistrettoFast.v — evaluators for the ristretto model, each proven equal to the reference of Model/Ristretto.v:
   scalar multiplication over Bignums.BigZ without converting back to Z between field operations (the correspondence
   check runs the model with it, and [l]B = 0 in Proofs/RistrettoGroup.v is evaluated through it), and an arithmetic
   kernel on plain integers that reduces modulo 2^255 - 19 by folding, for the one closed evaluation that must not rest
   on the primitive-integer axioms BigZ brings in (decompress_zeros in Proofs/RistrettoCanon.v). *)
From Coq Require Import ZArith Bool Lia.
From Bignums Require Import BigZ.
From Strand Require Import Base.ZUtil Base.FastArith Model.Ristretto.
Open Scope Z_scope.

Record bpoint : Type := { bpx : bigZ; bpy : bigZ; bpz : bigZ; bpt : bigZ }.

Definition Fpb : bigZ := Eval vm_compute in bz fp.
Definition D2 : Z := Eval vm_compute in fmul K_ref 2 ed_d.
Definition D2b : bigZ := Eval vm_compute in bz D2.
Definition twob : bigZ := Eval vm_compute in bz 2.

Definition bmulm (a b : bigZ) : bigZ := BigZ.modulo (BigZ.mul a b) Fpb.
Definition baddm (a b : bigZ) : bigZ := BigZ.modulo (BigZ.add a b) Fpb.
Definition bsubm (a b : bigZ) : bigZ := BigZ.modulo (BigZ.sub a b) Fpb.

Lemma zb_Fpb : zb Fpb = fp.  Proof. vm_compute. reflexivity. Qed.
Lemma zb_D2b : zb D2b = fmul K_ref 2 ed_d.  Proof. vm_compute. reflexivity. Qed.
Lemma zb_twob : zb twob = 2.  Proof. vm_compute. reflexivity. Qed.

Lemma zb_mod_Fpb x : zb (BigZ.modulo x Fpb) = fmod K_ref (zb x).
Proof. unfold zb, fmod. cbn [k_mod K_ref]. rewrite BigZ.spec_modulo. fold (zb Fpb). now rewrite zb_Fpb. Qed.

Lemma bmulm_spec a b : zb (bmulm a b) = fmul K_ref (zb a) (zb b).
Proof. unfold bmulm, fmul. rewrite zb_mod_Fpb. unfold zb. now rewrite BigZ.spec_mul. Qed.
Lemma baddm_spec a b : zb (baddm a b) = fadd K_ref (zb a) (zb b).
Proof. unfold baddm, fadd. rewrite zb_mod_Fpb. unfold zb. now rewrite BigZ.spec_add. Qed.
Lemma bsubm_spec a b : zb (bsubm a b) = fsub K_ref (zb a) (zb b).
Proof. unfold bsubm, fsub. rewrite zb_mod_Fpb. unfold zb. now rewrite BigZ.spec_sub. Qed.

Definition bpt_add (p1 p2 : bpoint) : bpoint :=
  let A := bmulm (bsubm (bpy p1) (bpx p1)) (bsubm (bpy p2) (bpx p2)) in
  let B := bmulm (baddm (bpy p1) (bpx p1)) (baddm (bpy p2) (bpx p2)) in
  let C := bmulm (bmulm (bpt p1) D2b) (bpt p2) in
  let D := bmulm (bmulm (bpz p1) twob) (bpz p2) in
  let E' := bsubm B A in let F := bsubm D C in let G := baddm D C in let H := baddm B A in
  {| bpx := bmulm E' F; bpy := bmulm G H; bpz := bmulm F G; bpt := bmulm E' H |}.

Fixpoint bpt_mul_pos (e : positive) (p1 : bpoint) : bpoint :=
  match e with
  | xH => p1
  | xO e' => let h := bpt_mul_pos e' p1 in bpt_add h h
  | xI e' => let h := bpt_mul_pos e' p1 in bpt_add (bpt_add h h) p1
  end.

Definition to_b (p1 : point) : bpoint := {| bpx := bz (px p1); bpy := bz (py p1); bpz := bz (pz p1); bpt := bz (pt p1) |}.
Definition of_b (p1 : bpoint) : point := {| px := zb (bpx p1); py := zb (bpy p1); pz := zb (bpz p1); pt := zb (bpt p1) |}.

Lemma of_to_b p1 : of_b (to_b p1) = p1.
Proof. destruct p1 as [a b c d]. unfold of_b, to_b. cbn [px py pz pt bpx bpy bpz bpt]. now rewrite !zb_bz. Qed.

Lemma bpt_add_spec p1 p2 : of_b (bpt_add p1 p2) = pt_add K_ref (of_b p1) (of_b p2).
Proof.
  unfold bpt_add, pt_add, of_b. cbn [px py pz pt bpx bpy bpz bpt].
  repeat (rewrite ?bmulm_spec, ?baddm_spec, ?bsubm_spec). rewrite zb_D2b, zb_twob. reflexivity.
Qed.

Lemma bpt_mul_pos_spec e p1 : of_b (bpt_mul_pos e p1) = pt_mul_pos K_ref e (of_b p1).
Proof.
  induction e as [e IH | e IH | ]; cbn [bpt_mul_pos pt_mul_pos].
  - rewrite !bpt_add_spec, IH. reflexivity.
  - rewrite bpt_add_spec, IH. reflexivity.
  - reflexivity.
Qed.

Definition fast_pt_mul (e : Z) (p1 : point) : point :=
  match e with Zpos e' => of_b (bpt_mul_pos e' (to_b p1)) | _ => pt_id end.

Lemma fast_pt_mul_ok e p1 : fast_pt_mul e p1 = pt_mul K_ref e p1.
Proof. destruct e as [|e'|e']; try reflexivity. cbn [fast_pt_mul pt_mul]. now rewrite bpt_mul_pos_spec, of_to_b. Qed.

(* every kernel computes the same points as the reference kernel *)
Lemma fmod_K K a : fmod K a = fmod K_ref a.  Proof. unfold fmod. now rewrite k_mod_ok. Qed.
Lemma fmul_K K a b : fmul K a b = fmul K_ref a b.  Proof. unfold fmul. rewrite (fmod_K K), (k_mul_ok K). reflexivity. Qed.
Lemma fadd_K K a b : fadd K a b = fadd K_ref a b.  Proof. unfold fadd. rewrite (fmod_K K). reflexivity. Qed.
Lemma fsub_K K a b : fsub K a b = fsub K_ref a b.  Proof. unfold fsub. rewrite (fmod_K K). reflexivity. Qed.
Lemma fneg_K K a : fneg K a = fneg K_ref a.  Proof. unfold fneg. now rewrite (fmod_K K). Qed.
Lemma fpow_K K a e : fpow K a e = fpow K_ref a e.  Proof. apply k_powm_ok. Qed.
Lemma pt_add_K K p1 p2 : pt_add K p1 p2 = pt_add K_ref p1 p2.
Proof. unfold pt_add. rewrite !(fmul_K K), !(fadd_K K), !(fsub_K K). reflexivity. Qed.
Lemma pt_mul_K K e p1 : pt_mul K e p1 = pt_mul K_ref e p1.
Proof.
  destruct e as [|e'|e']; try reflexivity. cbn [pt_mul].
  induction e' as [e IH | e IH | ]; cbn [pt_mul_pos]; rewrite ?(pt_add_K K), ?IH; reflexivity.
Qed.

(* ... and decodes the same byte strings. Both sides are unfolded together and rewritten until they coincide syntactically:
   a conversion test between them would unfold [powm] at a 252-bit exponent. *)
Lemma sqrt_ratio_m1_K K u v : sqrt_ratio_m1 K u v = sqrt_ratio_m1 K_ref u v.
Proof. unfold sqrt_ratio_m1, fabs, fsq. cbv zeta. rewrite !(fmul_K K), !(fneg_K K), (fpow_K K). reflexivity. Qed.
Lemma decode_s_K K s : decode_s K s = decode_s K_ref s.
Proof.
  unfold decode_s, fabs, fsq. cbv zeta. rewrite sqrt_ratio_m1_K, !(fmul_K K), !(fadd_K K), !(fsub_K K), !(fneg_K K).
  destruct (sqrt_ratio_m1 K_ref _ _) as [w i]. rewrite !(fmul_K K), ?(fneg_K K). reflexivity.
Qed.
Lemma decompress_K K bs : decompress K bs = decompress K_ref bs.
Proof. unfold decompress. now rewrite decode_s_K. Qed.

(* a kernel on plain integers with a cheap reduction modulo fp = 2^255 - 19:
   2^255 = 19 (mod fp), so the high half of a product is folded onto the low half instead of a 510-by-255-bit long division;
   two folds and one conditional subtraction reduce any 0 <= a < 2^510. Other moduli and arguments fall back to [mod]. *)
Definition fold255 (x : Z) : Z := Z.land x (Z.ones 255) + 19 * Z.shiftr x 255.
Definition red25519 (a : Z) : Z := let r := fold255 (fold255 a) in if r <? fp then r else r - fp.
Definition fold_mod (a m : Z) : Z :=
  if (m =? fp) && (0 <=? a) && (Z.shiftr a 510 =? 0) then red25519 a else a mod m.

Lemma fold255_eq x : fold255 x = x mod 2 ^ 255 + 19 * (x / 2 ^ 255).
Proof. unfold fold255. rewrite Z.land_ones, Z.shiftr_div_pow2 by lia. reflexivity. Qed.

Lemma fold255_mod x : fold255 x mod fp = x mod fp.
Proof.
  rewrite fold255_eq. rewrite (Z.div_mod x (2 ^ 255)) at 3 by lia.
  replace (2 ^ 255 * (x / 2 ^ 255) + x mod 2 ^ 255) with (x mod 2 ^ 255 + 19 * (x / 2 ^ 255) + (x / 2 ^ 255) * fp)
    by (change fp with (2 ^ 255 - 19); ring).
  now rewrite Z_mod_plus_full.
Qed.

Lemma fold_mod_ok a m : fold_mod a m = a mod m.
Proof.
  unfold fold_mod. destruct ((m =? fp) && (0 <=? a) && (Z.shiftr a 510 =? 0)) eqn:C; [|reflexivity].
  rewrite !andb_true_iff, Z.eqb_eq, Z.leb_le, Z.eqb_eq, Z.shiftr_div_pow2 in C by lia. destruct C as [[-> Ha] Hs].
  assert (a < 2 ^ 510) by (apply Z.div_small_iff in Hs; lia).
  unfold red25519. rewrite <- (fold255_mod a), <- (fold255_mod (fold255 a)).
  (* one fold leaves less than 20 * 2^255, the second less than 2^255 + 380 < 2 fp *)
  pose proof (fold255_eq a) as E1. pose proof (fold255_eq (fold255 a)) as E2.
  pose proof (Z.mod_pos_bound a (2 ^ 255) ltac:(lia)). pose proof (Z.mod_pos_bound (fold255 a) (2 ^ 255) ltac:(lia)).
  assert (0 <= a / 2 ^ 255 < 2 ^ 255) by (split; [apply Z.div_pos | apply Z.div_lt_upper_bound]; lia).
  assert (0 <= fold255 a / 2 ^ 255 < 20) by (split; [apply Z.div_pos | apply Z.div_lt_upper_bound]; lia).
  change fp with (2 ^ 255 - 19) in *.
  destruct (fold255 (fold255 a) <? 2 ^ 255 - 19) eqn:Lt; [apply Z.ltb_lt in Lt | apply Z.ltb_ge in Lt]; symmetry.
  - apply Z.mod_small. lia.
  - symmetry. apply Z.mod_unique with (q := 1); lia.
Qed.

Fixpoint fold_pow_pos (b : Z) (e : positive) (m : Z) : Z :=
  match e with
  | xH => fold_mod b m
  | xO e' => let z := fold_pow_pos b e' m in fold_mod (z * z) m
  | xI e' => let z := fold_pow_pos b e' m in fold_mod (fold_mod (z * z) m * b) m
  end.
Definition fold_powm (b e m : Z) : Z :=
  match e with Zpos e' => if m =? 0 then powm b e m else fold_pow_pos b e' m | _ => powm b e m end.

Lemma fold_pow_pos_spec b e m : fold_pow_pos b e m = b ^ Zpos e mod m.
Proof.
  apply (sqmul_pow b m (fun e => fold_pow_pos b e m)).
  - apply fold_mod_ok.
  - intro e'. cbn [fold_pow_pos]. apply fold_mod_ok.
  - intro e'. cbn [fold_pow_pos]. rewrite !fold_mod_ok. reflexivity.
Qed.

Lemma fold_powm_ok b e m : fold_powm b e m = powm b e m.
Proof.
  unfold fold_powm. destruct e as [|e|e]; try reflexivity. destruct (m =? 0) eqn:Hm; [reflexivity|].
  apply Z.eqb_neq in Hm. rewrite fold_pow_pos_spec. symmetry. now apply powm_spec.
Qed.

Definition K_25519 : Kernel := {|
  k_powm := fold_powm; k_mul := Z.mul; k_mod := fold_mod; k_invm := invm;
  k_powm_ok := fold_powm_ok; k_mul_ok := fun _ _ => eq_refl; k_mod_ok := fold_mod_ok; k_invm_ok := fun _ _ => eq_refl |}.

(* the scalar multiplication handed to the ristretto backend: any function equal to the reference *)
Record PMul : Type := { pm_mul : Z -> point -> point; pm_ok : forall e p1, pm_mul e p1 = pt_mul K_ref e p1 }.
Definition PM_ref : PMul := {| pm_mul := pt_mul K_ref; pm_ok := fun _ _ => eq_refl |}.
Definition PM_fast : PMul := {| pm_mul := fast_pt_mul; pm_ok := fast_pt_mul_ok |}.
