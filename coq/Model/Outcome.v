(* Model/Outcome.v — result type of the code-shaped model: every Rust `expect`/`unwrap`/index/`assert!`/
   BigUint underflow is an explicit [Panic]; every `Err(..)` is [Err]. *)
From Coq Require Import List.
Import ListNotations.

Inductive outcome (A : Type) : Type :=
| Ok (a : A)
| Err
| Panic.
Arguments Ok {A} a.
Arguments Err {A}.
Arguments Panic {A}.

Definition bind {A B} (o : outcome A) (f : A -> outcome B) : outcome B :=
  match o with Ok a => f a | Err => Err | Panic => Panic end.

Declare Scope outcome_scope.
Delimit Scope outcome_scope with outcome.
Notation "x <- o ;; k" := (bind o (fun x => k))
  (at level 61, o at next level, right associativity) : outcome_scope.
Notation "' p <- o ;; k" := (bind o (fun x => match x with p => k end))
  (at level 61, p pattern, o at next level, right associativity) : outcome_scope.

Definition of_option {A} (o : option A) : outcome A :=
  match o with Some a => Ok a | None => Panic end.   (* Option::expect / index out of bounds *)

Definition of_option_err {A} (o : option A) : outcome A :=
  match o with Some a => Ok a | None => Err end.

Definition is_ok {A} (o : outcome A) : bool := match o with Ok _ => true | _ => false end.

(* map over a list, first non-Ok outcome wins (sequential `collect::<Result<_,_>>`) *)
Fixpoint mapM {A B} (f : A -> outcome B) (l : list A) : outcome (list B) :=
  match l with
  | [] => Ok []
  | x :: r => match f x with
              | Ok y => match mapM f r with Ok ys => Ok (y :: ys) | Err => Err | Panic => Panic end
              | Err => Err
              | Panic => Panic
              end
  end.

Lemma bind_ok {A B} (o : outcome A) (f : A -> outcome B) b :
  bind o f = Ok b -> exists a, o = Ok a /\ f a = Ok b.
Proof. destruct o; simpl; intros H; try discriminate. eauto. Qed.

Lemma bind_np {A B} (o : outcome A) (f : A -> outcome B) :
  o <> Panic -> (forall a, f a <> Panic) -> bind o f <> Panic.
Proof. intros Ho Hf. destruct o; cbn [bind]; [apply Hf|discriminate|congruence]. Qed.

Lemma bind_err {A B} (o : outcome A) (f : A -> outcome B) : o = Err -> bind o f = Err.
Proof. intros ->. reflexivity. Qed.

Lemma mapM_np {A B} (f : A -> outcome B) l : (forall a, f a <> Panic) -> mapM f l <> Panic.
Proof.
  intro Hf. induction l as [|x l IH]; cbn [mapM]; [discriminate|].
  pose proof (Hf x). destruct (f x); try congruence. destruct (mapM f l); congruence.
Qed.

Lemma mapM_ok {A B} (f : A -> outcome B) (g : B -> A) l :
  (forall b, In b l -> f (g b) = Ok b) -> mapM f (map g l) = Ok l.
Proof.
  induction l as [|x l IH]; intro H; cbn [mapM map]; [reflexivity|].
  rewrite H by (left; reflexivity). rewrite IH; [reflexivity|].
  intros b Hb. apply H. right. exact Hb.
Qed.

Lemma mapM_inv {A B} (f : A -> outcome B) (Q : A -> Prop) (v : B -> Prop) :
  (forall a b, Q a -> f a = Ok b -> v b) ->
  forall l l', Forall Q l -> mapM f l = Ok l' -> Forall v l'.
Proof.
  intros H l. induction l as [|x l IH]; intros l' HQ E; cbn [mapM] in E.
  - injection E as <-. constructor.
  - inversion HQ as [|? ? Hx Hl]; subst.
    destruct (f x) as [y| |] eqn:Ex; try discriminate.
    destruct (mapM f l) as [ys| |] eqn:El; try discriminate.
    injection E as <-. constructor; [eapply H; eauto|]. apply IH; auto.
Qed.

Lemma mapM_app {A B} (f : A -> outcome B) (l1 l2 : list A) :
  mapM f (l1 ++ l2) = bind (mapM f l1) (fun a => bind (mapM f l2) (fun b => Ok (a ++ b))).
Proof.
  induction l1 as [|x l1 IH]; cbn [mapM app bind].
  - destruct (mapM f l2); reflexivity.
  - destruct (f x); [|reflexivity|reflexivity]. rewrite IH.
    destruct (mapM f l1); [|reflexivity|reflexivity]. cbn [bind]. destruct (mapM f l2); reflexivity.
Qed.
